(** C05 — the HTTP API behaves as the documented sequential state machine.
    [api_step] (Model/Api.v) is the sequential registry machine itself, written handler by handler
    from the Go code with routes, status codes, defaults and the toxic registry extracted from the
    source; it is what the correspondence harness replays every request sequence through. The
    theorems below are laws of that machine. *)
From Coq Require Import String.
From TP Require Import Model.Prelude Extracted Model.Json Model.Api Proofs.ApiInv Proofs.ApiProofs.

(** a request that identifies itself as a browser has no effect and is answered 403 on every
    route (404/405 come from the router itself, before the middleware, for unknown paths/methods) *)
Theorem C05_browser : forall e s r,
  r_browser r = true ->
  snd (api_step e s r) = s /\
  (status (fst (api_step e s r)) = status_browser_forbidden \/
   status (fst (api_step e s r)) = status_not_found \/
   status (fst (api_step e s r)) = status_method_not_allowed).
Proof.
  intros e s r Hb. unfold api_step. rewrite Hb.
  destruct (route routes (r_meth r) (r_path r) false) as [[h|] [|]]; auto.
Qed.
Print Assumptions C05_browser.

Theorem C05_status_codes :
  status_browser_forbidden = 403 /\ status_proxy_not_found = 404 /\ status_toxic_not_found = 404 /\
  status_proxy_exists = 409 /\ status_toxic_exists = 409 /\
  status_bad_request_body = 400 /\ status_missing_field = 400 /\ status_invalid_stream = 400 /\
  status_invalid_toxic_type = 400 /\ status_created = 201 /\ status_no_content = 204 /\ status_ok = 200.
Proof. repeat split. Qed.
Print Assumptions C05_status_codes.

Theorem C05_defaults :
  create_enabled_default = true /\ toxic_stream_default = "downstream"%string /\ toxic_toxicity_default_1024 = 1024.
Proof. repeat split. Qed.
Print Assumptions C05_defaults.

(** unknown names yield 404 and change nothing *)
Theorem C05_unknown_proxy : forall e s name b t,
  find_proxy s name = None ->
  h_proxy_show s name = (err status_proxy_not_found, s) /\
  h_proxy_update e s name b = (err status_proxy_not_found, s) /\
  h_proxy_delete s name = (err status_proxy_not_found, s) /\
  h_toxic_index s name = (err status_proxy_not_found, s) /\
  h_toxic_create s name b = (err status_proxy_not_found, s) /\
  h_toxic_show s name t = (err status_proxy_not_found, s) /\
  h_toxic_update s name t b = (err status_proxy_not_found, s) /\
  h_toxic_delete s name t = (err status_proxy_not_found, s).
Proof.
  intros e s name b t H.
  unfold h_proxy_show, h_proxy_update, h_proxy_delete, h_toxic_index, h_toxic_create, h_toxic_show, h_toxic_update, h_toxic_delete.
  rewrite H. repeat split.
Qed.
Print Assumptions C05_unknown_proxy.

(** a duplicate proxy name is refused with 409 whatever else the (well-formed) body says *)
Theorem C05_duplicate_proxy : forall e s p name listen upstream,
  find_proxy s name = Some p -> name <> ""%string -> upstream <> ""%string ->
  h_proxy_create e s (BJson (JObj [("name", JStr name); ("listen", JStr listen); ("upstream", JStr upstream)]%string))
  = (err status_proxy_exists, s).
Proof.
  intros e s p name listen upstream Hf Hn%String.eqb_neq Hu%String.eqb_neq. now rewrite create_named, Hn, Hu, Hf.
Qed.
Print Assumptions C05_duplicate_proxy.

(** every answer >= 400 outside the bind class leaves the registry unchanged (shared with C06) *)
Theorem C05_errors_have_no_effect : update_in_place = false -> forall e s r,
  rejected (fst (api_step e s r)) ->
  snd (api_step e s r) = s \/
  (status (fst (api_step e s r)) = status_internal /\
   exists h, fst (route routes (r_meth r) (r_path r) false) = Some h /\
             (h = "ProxyUpdate" \/ h = "Populate" \/ h = "ResetState")%string).
Proof. exact rejected_unchanged. Qed.
Print Assumptions C05_errors_have_no_effect.

(** the registry invariant: in every state reachable from the empty server by ANY request sequence
    (valid, malformed, conflicting; populate and reset included) proxies are unique by name and
    toxics are unique by name within each proxy, across both streams *)
Theorem C05_registry_invariant : forall e rs,
  let s := snd (api_run e [] rs) in
  NoDup (map p_name s) /\ Forall (fun p => NoDup (map t_name (all_toxics p))) s.
Proof. intros e rs. exact (edits_registry _ _ (run_edits e rs []) (NoDup_nil _) (Forall_nil _)). Qed.
Print Assumptions C05_registry_invariant.

(** ... and one request preserves it from any state that has it *)
Theorem C05_registry_step : forall e s r,
  NoDup (map p_name s) -> Forall (fun p => NoDup (map t_name (all_toxics p))) s ->
  NoDup (map p_name (snd (api_step e s r))) /\ Forall (fun p => NoDup (map t_name (all_toxics p))) (snd (api_step e s r)).
Proof. intros e s r. exact (edits_registry _ _ (step_edits e s r)). Qed.
Print Assumptions C05_registry_step.

(** ---- every read reflects all earlier successful writes *)

Theorem C05_reads_are_pure : forall s n t,
  snd (h_proxy_index s) = s /\ snd (h_proxy_show s n) = s /\ snd (h_toxic_index s n) = s /\ snd (h_toxic_show s n t) = s.
Proof. exact reads_are_pure. Qed.
Print Assumptions C05_reads_are_pure.

Theorem C05_create_then_read : forall e s b resp s',
  h_proxy_create e s b = (resp, s') -> status resp = status_created ->
  exists p', pl resp = PProxy p' /\ find_proxy s (p_name p') = None /\
             h_proxy_show s' (p_name p') = (mkResp status_ok (PProxy p'), s') /\
             (forall m, m <> p_name p' -> find_proxy s' m = find_proxy s m).
Proof.
  intros e s b resp s' H Hst. destruct (adds_read s resp s') as (p & -> & Hf & Hp & Hm).
  { apply (answer_ok s); [rewrite <- H; apply create_spec|now rewrite Hst]. }
  exists p. unfold h_proxy_show. now rewrite Hp.
Qed.
Print Assumptions C05_create_then_read.

Theorem C05_update_then_read : forall e s n b resp s',
  h_proxy_update e s n b = (resp, s') -> status resp = status_ok ->
  exists p p', find_proxy s n = Some p /\ pl resp = PProxy p' /\ p_name p' = n /\
               p_up p' = p_up p /\ p_down p' = p_down p /\
               h_proxy_show s' n = (mkResp status_ok (PProxy p'), s') /\
               (forall m, m <> n -> find_proxy s' m = find_proxy s m).
Proof.
  intros e s n b resp s' H Hst. assert (E : puts s n readdressed resp s')
    by (apply (answer_ok s); [rewrite <- H; apply update_spec|now rewrite Hst]).
  destruct (puts_read _ _ _ _ _ E) as (p & q & Hf & Hq & Hu & Hd & [-> | ->]); [|discriminate].
  exists p, q. unfold h_proxy_show. rewrite Hq. repeat split; auto; [exact (find_name _ _ _ Hq)|].
  intros m. exact (puts_frame _ _ _ _ _ m E).
Qed.
Print Assumptions C05_update_then_read.

Theorem C05_delete_then_read : forall s n resp s',
  NoDup (map p_name s) -> h_proxy_delete s n = (resp, s') -> status resp = status_no_content ->
  h_proxy_show s' n = (err status_proxy_not_found, s') /\ (forall m, m <> n -> find_proxy s' m = find_proxy s m).
Proof.
  unfold h_proxy_delete, h_proxy_show. intros s n resp s' Hu H Hst. destruct (find_proxy s n); [|now inversion H; subst].
  inversion H. split; [now rewrite (proj2 (uniq_remove _ _ Hu))|apply find_remove_other].
Qed.
Print Assumptions C05_delete_then_read.

Theorem C05_toxic_requests_touch_one_proxy : forall s n t b m,
  m <> n ->
  find_proxy (snd (h_toxic_create s n b)) m = find_proxy s m /\
  find_proxy (snd (h_toxic_update s n t b)) m = find_proxy s m /\
  find_proxy (snd (h_toxic_delete s n t)) m = find_proxy s m.
Proof.
  intros s n t b m Hm. repeat split; refine (answer_frame s n retoxed _ m _ Hm);
    [apply toxic_create_spec|apply toxic_update_spec|apply toxic_delete_spec].
Qed.
Print Assumptions C05_toxic_requests_touch_one_proxy.
