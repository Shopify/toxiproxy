(** C17 — populate is idempotent and replaces on difference; reset restores a clean state.
    Over the API model [api_step] (Model/Api.v); [env] is the OS oracle: for each listen string the
    port it denotes, how the resolved address prints and how a bound listener prints. *)
From Coq Require Import String.
From TP Require Import Model.Prelude Extracted Model.Json Model.Api Proofs.ApiInv Proofs.C17Proofs.

(** every entry matches an existing proxy (as Proxy.Differs compares): 201, the existing proxies in
    request order, and nothing at all changes - not the proxies, not their toxic chains; the proxy
    objects are kept (never stopped), which is why live connections stay up *)
Theorem C17_idempotent : forall e s items,
  Forall (entry_matches e s) items ->
  populate_apply e s items [] = (mkResp status_created (PPopulate (flat_map (existing s) items)), s).
Proof. intros e s items. exact (populate_apply_idempotent e s items []). Qed.
Print Assumptions C17_idempotent.

Theorem C17_idempotent_repeated : forall e s items n,
  Forall (entry_matches e s) items -> repeat_populate e s items n = s.
Proof.
  intros e s items n H. induction n as [|n IH]; cbn [repeat_populate]; [reflexivity|].
  now rewrite populate_apply_idempotent.
Qed.
Print Assumptions C17_idempotent_repeated.

(** an entry that differs in listen address or upstream replaces the proxy: the old one is stopped
    before the new one binds, and the new one has no toxics *)
Theorem C17_replace : forall e s i old a fresh',
  find_proxy s (pi_name i) = Some old -> lookup_env e (pi_listen i) = Some a ->
  (p_listen old <> a_resolved a \/ p_upstream old <> pi_upstream i) ->
  (match pi_enabled i with Some b => b | None => true end) = true ->
  start_proxy e (remove_proxy (replace_proxy s (stop_proxy old)) (pi_name i))
              (mkProxy (pi_name i) (pi_listen i) (pi_upstream i) false [] []) = Some fresh' ->
  populate_apply e s [i] [] =
  (mkResp status_created (PPopulate [fresh']), replace_proxy (replace_proxy s (stop_proxy old)) fresh') /\
  p_up fresh' = [] /\ p_down fresh' = [] /\ p_enabled fresh' = true.
Proof.
  intros e s i old a fresh' Hf Hl Hd He Hs. cbn [populate_apply]. rewrite Hf, Hl.
  replace (negb (_ || _)) with false
    by (destruct Hd as [Hd%String.eqb_neq|Hd%String.eqb_neq]; rewrite Hd; now rewrite ?orb_true_r).
  rewrite He, Hs. now apply start_same in Hs as (_ & -> & -> & ->).
Qed.
Print Assumptions C17_replace.

(** after a successful reset every proxy is enabled and has no toxics in either direction *)
Theorem C17_reset : forall e s resp s',
  reset_all e s s = (resp, s') -> status resp = status_no_content ->
  forall n p, In n (map p_name s) -> find_proxy s' n = Some p -> clean p.
Proof. intros e s resp s' H Hst n p Hin. exact (reset_all_clean e n s s resp s' H Hst (or_intror Hin) p). Qed.
Print Assumptions C17_reset.

(** finding F10 (known): matching as the property means it - same socket address - is not what
    the code compares for the :port spelling (and for proxies that were never started): repeating
    the same body replaces the proxy and drops its toxics *)
Theorem C17_match_is_spelling_independent_refuted :
  let '(_, s1) := h_populate f10_env [] f10_body in
  let '(_, s2) := h_toxic_create s1 "a" (BJson (JObj [("type", JStr "latency")]))%string in
  let '(_, s3) := h_populate f10_env s2 f10_body in
  (exists p, find_proxy s2 "a" = Some p /\ length (p_down p) = 1%nat) /\
  (exists p, find_proxy s3 "a" = Some p /\ p_down p = []).
Proof. vm_compute. split; eexists; split; reflexivity. Qed.
Print Assumptions C17_match_is_spelling_independent_refuted.

(** a populate entry that replaces a proxy stops the old incarnation - directly in the branch that found
    it, before the replacement is started or filed, whatever the replacement's address and enabled flag
    (regenerated from ProxyCollection.AddOrReplace); what stop() then guarantees is the lifecycle theorem *)
Theorem C17_replace_stops_the_old_proxy : replace_stops_the_old_proxy = true.
Proof. reflexivity. Qed.
Print Assumptions C17_replace_stops_the_old_proxy.
