(** C04 — listed toxics are exactly the toxics in effect, on old and new connections.
    [Collection] models what link.go and toxic_collection.go keep between API operations: the
    listed chain and, per registered connection, the stubs addressed by chain position. *)
From Coq Require Import String.
From TP Require Import Model.Prelude Extracted Model.Collection Proofs.C04Proofs.
From TP Require Proofs.TxList.

(** every path out of ToxicLink.RemoveToxic drops the removed toxic's stub (extracted from link.go) *)
Theorem C04_remove_always_splices : remove_always_splices = true.
Proof. reflexivity. Qed.
Print Assumptions C04_remove_always_splices.

(** over every history of add / update / remove (from any position, any name re-use) and of
    connections starting, ending and having their stream end at any stub, with any subset of links
    taking an early-return path of each removal: the stub at position i of every registered
    connection belongs to the toxic listed at position i *)
Theorem C04_aligned : forall ops, aligned (crun ops).
Proof. exact (run_aligned C04_remove_always_splices). Qed.
Print Assumptions C04_aligned.

(** a connection established after the history is built from the listed chain itself *)
Theorem C04_new_connection : forall c,
  nth_error (c_links (cstep c OLinkStart)) (length (c_links c)) = Some (map (fun n => mkCStub n false) (c_chain c)).
Proof. intros c. simpl. rewrite nth_error_app2 by lia. now rewrite Nat.sub_diag. Qed.
Print Assumptions C04_new_connection.

(** the index under which an operation addresses a toxic is its position in the listed chain *)
Theorem C04_index_is_position : forall name l i k,
  index_of name l i = Some k -> (i <= k)%nat /\ nth_error l (k - i) = Some name.
Proof.
  intros name. induction l as [|x l IH]; intros i k H; simpl in H; [discriminate|].
  destruct (String.eqb x name) eqn:E.
  - inversion H. apply String.eqb_eq in E. subst. split; [lia|]. now rewrite Nat.sub_diag.
  - destruct (IH _ _ H) as [Hle Hn]. split; [lia|].
    replace (k - i)%nat with (S (k - S i)) by lia. exact Hn.
Qed.
Print Assumptions C04_index_is_position.

(** regression witness for the repaired defect F4: without the splice on the early-return paths
    the second toxic's stub ends up at the wrong position *)
Theorem C04_aligned_refuted_pinned :
  let c := fold_left cstep_pinned [OLinkStart; OAdd "a"; OAdd "b"; OCloseFrom 0 0; ORemove "a" [true]]%string coll_init in
  ~ aligned c.
Proof.
  cbv zeta. intros H. vm_compute in H. inversion H as [|? ? Hx _]. discriminate.
Qed.
Print Assumptions C04_aligned_refuted_pinned.

(** regenerated from link.go on every run: a link leaves the collection only from write(), after the
    destination was closed - so a connection whose sender has closed but whose data or close is
    still held by a toxic is still reached by every chain operation *)
Theorem C04_links_stay_registered_until_written : link_unregistered_only_by_writer = true.
Proof. reflexivity. Qed.
Print Assumptions C04_links_stay_registered_until_written.

(** on the link level, under every interleaving of the data path with the control actions of the
    operations: which toxic and which toxicity decision each stub of a connection runs is changed by
    the control actions only, each in exactly one way (data-path actions, time, interrupts,
    flushes and closes change nothing) *)
Theorem C04_only_control_actions_change_the_toxics : forall sigma l l',
  Reconf.mixed_run l sigma = Some l' -> TxList.tes l' = TxList.tes_fold sigma (TxList.tes l).
Proof.
  induction sigma as [|a sigma IH]; intros l l' H; simpl in H; [inversion H; reflexivity|].
  destruct (Reconf.mixed_step l a) as [l1|] eqn:Hs; [|discriminate].
  rewrite (IH _ _ H). destruct a as [d|c]; simpl in Hs |- *.
  - now rewrite (TxList.data_tes _ _ _ Hs).
  - now rewrite (TxList.ctl_tes _ _ _ Hs).
Qed.
Print Assumptions C04_only_control_actions_change_the_toxics.

(** ... and the three operations, as the control actions their processes emit (Model/ReconfRun.v,
    replayed against the code), do to that list exactly what the API does to its listing: an update
    replaces the entry (attributes written first, then the stage restarted with the new decision), an
    add inserts the new toxic behind the last stub, a remove deletes the entry *)
Theorem C04_update_replaces : forall p tx eff ts,
  TxList.tes_after (Reconf.CRestart p tx eff) (TxList.tes_after (Reconf.CInterrupt p) (TxList.tes_after (Reconf.CSetTx p tx) ts)) = TxList.upd_nth p (fun _ => (tx, eff)) ts.
Proof. intros p tx eff ts. cbn [TxList.tes_after]. now rewrite TxList.upd_nth_twice. Qed.
Print Assumptions C04_update_replaces.

Theorem C04_add_inserts : forall p tx eff effp (ts : list (Toxics.toxic * bool)) txp effp0,
  nth_error ts p = Some (txp, effp0) ->
  TxList.tes_after (Reconf.CRestart p txp effp) (TxList.tes_after (Reconf.CInsertAfter p tx eff) (TxList.tes_after (Reconf.CInterrupt p) ts)) =
  firstn (S p) (TxList.upd_nth p (fun _ => (txp, effp)) ts) ++ (tx, eff) :: skipn (S p) ts.
Proof.
  intros p tx eff effp ts txp effp0 Hn.
  revert p Hn. induction ts as [|x ts IH]; intros [|p] Hn; simpl; try discriminate.
  - reflexivity.
  - f_equal. exact (IH p Hn).
Qed.
Print Assumptions C04_add_inserts.

Theorem C04_remove_deletes : forall p q txq effq (ts : list (Toxics.toxic * bool)),
  (q < p)%nat ->
  TxList.tes_after (Reconf.CRestart q txq effq) (TxList.tes_after (Reconf.CDelete p) ts) = TxList.upd_nth q (fun _ => (txq, effq)) (Reconf.remove_nth p ts).
Proof. reflexivity. Qed.
Print Assumptions C04_remove_deletes.

(** operations reach every open connection: an add or update gives up on a connection only when
    the stage it has to interrupt is closed (its stream has ended there) - never because the stage
    is busy, for however long (regenerated: the interrupt of AddToxic / UpdateToxic is the plain,
    unbounded InterruptToxic, and the new stage is connected only after it succeeded) *)
From TP Require Proofs.ReconfRunProofs.
Theorem C04_operations_reach_every_open_connection : forall l p w,
  ReconfRun.interrupt_try l p w = ReconfRun.IFalse ->
  exists s, nth_error (Timed.l_stubs l) p = Some s /\ Timed.s_closed s = true /\ w = false.
Proof. exact ReconfRunProofs.interrupt_gives_up_only_on_closed. Qed.
Print Assumptions C04_operations_reach_every_open_connection.

Theorem C04_operation_code_facts :
  interrupt_is_unbounded = true /\ ops_use_plain_interrupt = true /\ add_connects_after_interrupt = true.
Proof. repeat split. Qed.
Print Assumptions C04_operation_code_facts.

(** the model keeps one chain per direction; in the code each direction's chain is a slice of its own
    (a fresh allocation per direction in NewToxicCollection, regenerated), so appending the n-th
    toxic of one direction cannot write into the chain of the other *)
Theorem C04_chains_are_separate : chains_are_separate = true.
Proof. reflexivity. Qed.
Print Assumptions C04_chains_are_separate.
