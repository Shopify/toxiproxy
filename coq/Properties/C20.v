(** C20 — byte counters are exact and monotone. [l_rx] / [l_tx] are the byte counts that
    link.read / link.write add to the received / sent counters when they leave. *)
From Coq Require Import String.
From TP Require Import Model.Prelude Extracted Model.Timed Proofs.GoArith Proofs.LinkFrame.

(** on every schedule, for every chain (dropping and truncating toxics included): the writer's
    count is exactly the bytes written to the receiver, and the reader's count plus what it has not
    read yet is the sender's total *)
Theorem C20_exact : forall n sigma l l',
  sched_run l sigma = Some l' -> counters_ok n l -> counters_ok n l'.
Proof.
  intros n sigma l l'. apply (LinkSteps.sched_run_ind (counters_ok n)).
  intros x a x' Hx Hs. exact (step_counters _ _ _ _ Hs Hx).
Qed.
Print Assumptions C20_exact.

Theorem C20_init : forall chain src draws sd,
  counters_ok (zlen (unread (link_init_slow chain src draws sd))) (link_init_slow chain src draws sd).
Proof. split; reflexivity. Qed.
Print Assumptions C20_init.

(** counters only ever receive non-negative additions, each link adding once per counter *)
Theorem C20_monotone : forall (l : link), 0 <= zlen (sink_bytes l) /\ 0 <= zlen (unread l).
Proof. split; apply zlen_nonneg. Qed.
Print Assumptions C20_monotone.

(** what is added to the sent counter, and when (extracted from link.write): only on a clean end *)
Theorem C20_sent_only_without_error : sent_counted_on_error = false.
Proof. reflexivity. Qed.
Print Assumptions C20_sent_only_without_error.

Theorem C20_labels : metric_labels = ["direction"; "proxy.Name"; "proxy.Listen"; "proxy.Upstream"]%string.
Proof. reflexivity. Qed.
Print Assumptions C20_labels.

(** ---- which series the bytes go to (labels). [Model.Metrics]: link.Start takes the label values
    from the proxy when the link starts ([metric_labels] above is that list, regenerated from
    link.go); the counters are an append-only log. *)
From TP Require Import Model.Metrics Proofs.MetricsProofs.

(** a connection that starts takes the proxy's name, listen address and upstream as they are now *)
Theorem C20_start_takes_current_labels : forall s c p listen up,
  zassoc p (m_cfg s) = Some (listen, up) ->
  zassoc c (m_open (m_step s (MStart c p))) = Some (listen, p, up).
Proof. intros s c p listen up H. cbn [m_step]. rewrite H. cbn [m_open zassoc]. now rewrite Z.eqb_refl. Qed.
Print Assumptions C20_start_takes_current_labels.

(** ... and keeps them whatever happens before it ends: in-place updates of its proxy, other
    proxies, other connections *)
Theorem C20_labels_fixed_at_start : forall s e c lab,
  zassoc c (m_open s) = Some lab ->
  (forall p, e <> MStart c p) -> (forall a b c' d, e <> MEnd c a b c' d) ->
  zassoc c (m_open (m_step s e)) = Some lab.
Proof.
  intros s e c lab Ho Hs He. destruct e as [p l0 u0|c2 p|c2 a b c' d|]; cbn [m_step]; try exact Ho.
  - destruct (zassoc p (m_cfg s)) as [[l u]|]; [|exact Ho]. cbn [m_open zassoc]. rewrite zassoc_zremove.
    destruct (Z.eqb_spec c c2) as [->|]; [now edestruct Hs|exact Ho].
  - destruct (zassoc c2 (m_open s)); [|exact Ho]. cbn [m_open]. rewrite zassoc_zremove.
    destruct (Z.eqb_spec c c2) as [->|]; [now edestruct He|exact Ho].
Qed.
Print Assumptions C20_labels_fixed_at_start.

(** when it ends, its four counts are added to exactly the four series with those labels; every
    series with other labels is untouched *)
Theorem C20_end_exact : forall s c urx utx drx dtx lab,
  zassoc c (m_open s) = Some lab ->
  let s' := m_step s (MEnd c urx utx drx dtx) in
  counter s' (false, false, lab) = counter s (false, false, lab) + urx /\
  counter s' (true, false, lab) = counter s (true, false, lab) + utx /\
  counter s' (false, true, lab) = counter s (false, true, lab) + drx /\
  counter s' (true, true, lab) = counter s (true, true, lab) + dtx /\
  (forall k, snd k <> lab -> counter s' k = counter s k).
Proof.
  intros s c urx utx drx dtx lab Ho s'. subst s'.
  repeat split; try intros [[sent down] l] Hk; rewrite counter_step; cbn [added]; rewrite Ho.
  1-4: now rewrite labels_eqb_refl.
  destruct (labels_eqb l lab) eqn:E; [apply labels_eqb_eq in E; contradiction|lia].
Qed.
Print Assumptions C20_end_exact.

(** no other event moves any counter; no connection is counted twice; no series ever decreases *)
Theorem C20_only_end_counts : forall s e k,
  (forall c a b c' d, e <> MEnd c a b c' d) -> counter (m_step s e) k = counter s k.
Proof. intros s e k H. rewrite counter_step. destruct e; cbn [added]; try lia. now edestruct H. Qed.
Print Assumptions C20_only_end_counts.

Theorem C20_counted_once : forall s c a b c' d a2 b2 c2 d2 k,
  counter (m_step (m_step s (MEnd c a b c' d)) (MEnd c a2 b2 c2 d2)) k = counter (m_step s (MEnd c a b c' d)) k.
Proof.
  intros. rewrite (counter_step (m_step _ _)). cbn [added m_step].
  destruct (zassoc c (m_open s)) eqn:E; cbn [m_open]; rewrite ?zassoc_zremove, ?Z.eqb_refl, ?E; lia.
Qed.
Print Assumptions C20_counted_once.

Theorem C20_never_decreases : forall h s k, Forall ev_nonneg h -> counter s k <= counter (fold_left m_step h s) k.
Proof.
  induction h as [|e h IH]; intros s k Hn; cbn [fold_left]; [lia|]. inversion Hn as [|? ? He Hh]; subst.
  specialize (IH (m_step s e) k Hh). rewrite counter_step in IH. pose proof (added_nonneg s e k He). lia.
Qed.
Print Assumptions C20_never_decreases.

(** non-vacuity: an update between two connections splits their bytes over two label sets *)
Example C20_labels_example :
  let s := m_run [MConfig 0 7000 9000; MStart 1 0; MEnd 1 10 10 10 10; MConfig 0 7000 9001; MStart 2 0; MEnd 2 5 5 5 5] in
  counter s (false, false, (7000, 0, 9000)) = 10 /\ counter s (false, false, (7000, 0, 9001)) = 5.
Proof. vm_compute. split; reflexivity. Qed.

(** ... and on every clean end: nothing but the metrics switch stands between a copy that ended without
    an error and the addition to the sent counter - no condition on the link, its toxics or its stubs
    (regenerated from ToxicLink.write) *)
Theorem C20_sent_on_every_clean_end : sent_counted_on_every_clean_end = true.
Proof. reflexivity. Qed.
Print Assumptions C20_sent_on_every_clean_end.
