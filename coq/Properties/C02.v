(** C02 — reconfiguring toxics never corrupts a live stream.
    [mixed_run] interleaves, in any order, the data-path actions of a link (reader, stages, timers,
    hand-offs, writer, time passing) with the control steps that AddToxic / UpdateToxic /
    RemoveToxic / InterruptToxic / Run perform on it (Model/Reconf.v). *)
From TP Require Import Model.Prelude Extracted Model.Toxics Model.Timed Model.Reconf
     Model.ReconfRun Proofs.StageContract Proofs.LinkInv Proofs.ReconfInv Proofs.ReconfRunProofs.

(** every single control step - an interrupt landing in any wait of any stage, a stage restarted
    with any data-preserving toxic and any toxicity decision, a stub appended, a queued chunk
    flushed past a removed toxic, the stub spliced out - keeps delivered ++ in flight ++ pending
    equal to the source stream *)
Theorem C02_control_step : forall l a l',
  link_ok l -> ctl_ok l a -> ctl_step l a = Some l' -> link_ok l' /\ stream l' = stream l.
Proof. exact ctl_preserves. Qed.
Print Assumptions C02_control_step.

(** hence for every interleaving of any history of such steps with the data path, as long as no
    hand-off is given up (no ASendTimeout, no CForwardDrop: the property's five-second clause):
    nothing is lost, duplicated, reordered or altered - what the receiver has is a prefix of what
    the sender wrote, and together with what is in flight and pending it is all of it *)
Theorem C02_no_corruption : forall sigma l l',
  link_ok l -> run_ok l sigma -> mixed_run l sigma = Some l' ->
  link_ok l' /\ sink_bytes l' ++ flow (l_stubs l') ++ pending l' = stream l.
Proof. exact mixed_run_inv. Qed.
Print Assumptions C02_no_corruption.

(** histories without attribute writes need no look at the states: it is enough that no hand-off is
    given up, no timeout toxic is cut out and every toxic started is data-preserving *)
Theorem C02_static_histories : forall sigma, Forall mact_static_ok sigma -> forall l, run_ok l sigma.
Proof.
  induction 1 as [|a sigma Ha _ IH]; intros l; [exact I|].
  split.
  - destruct a as [d|c]; [exact Ha|]. destruct c; try exact (Ha l); contradiction.
  - destruct (mixed_step l a); [apply IH|exact I].
Qed.
Print Assumptions C02_static_histories.

(** an update writes the new attributes into the toxic object the running stage reads, before it
    interrupts the stage. That write is admitted in every state of every stage, for every new value
    of the same toxic type - the stage stays well-formed (this is where the bandwidth race of finding
    F13 was: the fact [bw_cut_uses_tested_rate] is regenerated from toxics/bandwidth.go) *)
Theorem C02_attribute_write : forall l i tx s,
  bw_cut_uses_tested_rate = true -> link_ok l -> nth_error (l_stubs l) i = Some s ->
  same_kind (s_tx s) tx = true -> ctl_ok l (CSetTx i tx).
Proof.
  intros l i tx s Hfact Hok Hn Hk. cbn [ctl_ok]. rewrite Hn.
  destruct (link_ok_nth _ _ _ Hok Hn) as (Hp & Ha & Hw & Hps).
  unfold eff_tx in *. destruct (s_eff s); [|tauto]. pose proof (same_kind_preserving _ _ Hk Hp) as Hp'.
  auto using attrs_ok_all, preserving_pstate_ok, (setx_keeps_wf (s_tx s) tx).
Qed.
Print Assumptions C02_attribute_write.

Theorem C02_bandwidth_cuts_with_the_tested_rate : bw_cut_uses_tested_rate = true.
Proof. reflexivity. Qed.
Print Assumptions C02_bandwidth_cuts_with_the_tested_rate.

(** the executable reconfiguration runs that are compared with the real code to the nanosecond
    (AddToxic / UpdateToxic / RemoveToxic as processes over these control steps, Model/ReconfRun.v)
    are interleavings of this system, under either resolution of the scheduler's choices and for the
    guided search over them: the theorems above are about the very runs that are replayed *)
Theorem C02_executable_runs_are_interleavings : forall pol fuel horizon r r',
  rrun_quiet pol fuel horizon r = Some r' -> exists sigma, mixed_run (r_l r) sigma = Some (r_l r').
Proof.
  intros pol fuel. induction fuel as [|f IH]; intros horizon r r' H; simpl in H; [discriminate|].
  destruct (rstep pol r) as [[x r1]|] eqn:Hs; [exact (reach_rstep _ _ _ _ _ Hs (IH _ _ _ H))|].
  destruct (rnext_time r) as [t|]; [destruct (t <=? horizon)|]; try (injection H as <-; apply reach_refl).
  exact (reach_tick _ t _ (IH _ _ _ H)).
Qed.
Print Assumptions C02_executable_runs_are_interleavings.

Theorem C02_searched_runs_are_interleavings : forall fuel horizon obs oc r r',
  rsearch fuel horizon obs oc r = Some r' -> exists sigma, mixed_run (r_l r) sigma = Some (r_l r').
Proof. exact rsearch_mixed. Qed.
Print Assumptions C02_searched_runs_are_interleavings.

(** an interrupted stage writes back what it holds before it returns (the contract of
    CREATING_TOXICS.md), for every built-in toxic in every wait *)
Theorem C02_interrupt_holds : forall tx now s,
  wf tx s -> wf tx (on_interrupt now s) /\ held (on_interrupt now s) = held s.
Proof. exact on_interrupt_wf. Qed.
Print Assumptions C02_interrupt_holds.

(** the flush timeout of RemoveToxic and of the bandwidth toxic is five seconds (extracted) *)
Theorem C02_five_seconds : remove_flush_timeout_ns = 5000000000 /\ flush_timeout_ns = 5000000000.
Proof. split; reflexivity. Qed.
Print Assumptions C02_five_seconds.

(** regenerated ordering facts the control steps of Model/Reconf.v rest on: a stage that is handing a
    chunk on cannot be interrupted (sends are plain statements, never select arms); the per-connection
    state of a stateful toxic survives every restart; RemoveToxic drops the stub on every way out; and the
    shape of the operations that Model/ReconfRun.v follows: attributes and toxicity are stored before the
    stages are interrupted, InterruptToxic has no give-up, the operations reach stages through it alone,
    AddToxic connects and starts stages only after the interrupt succeeded, Run decides on every start *)
Theorem C02_code_facts :
  toxic_sends_are_plain = true /\ state_created_only_for_new_stubs = true /\ remove_always_splices = true /\
  update_writes_before_interrupt = true /\ interrupt_is_unbounded = true /\ ops_use_plain_interrupt = true /\
  add_connects_after_interrupt = true /\ run_decides_on_every_start = true.
Proof. repeat split. Qed.
Print Assumptions C02_code_facts.

(** non-vacuity: a latency stage interrupted mid-sleep, its stub removed while two chunks are
    queued, on a concrete link: the control steps are enabled and the stream is intact *)
Example C02_nonvacuous :
  let l0 := link_init [(TLatency 100 0, true)] [SWrite 0 [1;2;3]; SWrite 0 [4;5]; SWrite 0 [6]] [] in
  exists l1 l2, run_quiet 40 0 l0 = Some l1 /\
    mixed_run l1 [MCtl (CInterrupt 1); MData (AMove 1); MCtl (CInterrupt 0); MCtl (CForward 1); MCtl (CForward 1);
                  MCtl (CDelete 1); MCtl (CRestart 0 TNoop true)] = Some l2 /\
    sink_bytes l2 = [1;2;3;4;5;6] /\ length (l_stubs l2) = 1%nat.
Proof. eexists. eexists. split; [vm_compute; reflexivity|]. split; [vm_compute; reflexivity|]. split; reflexivity. Qed.

(** non-vacuity of the executable process: a latency toxic removed while a chunk sleeps in it and two
    more are queued: the operation runs to completion, the stub is spliced out, everything arrives *)
Example C02_executable_nonvacuous :
  let r0 := rrun_init [(TLatency 100 0, true)] [SWrite 0 [1;2;3]; SWrite 0 [4;5]; SWrite 0 [6]; SClose 500000000] []
                      [(50000000, ORemove 1 true)] in
  exists r1, rrun_quiet false 200 1000000000 r0 = Some r1 /\
    sink_bytes (r_l r1) = [1;2;3;4;5;6] /\ length (l_stubs (r_l r1)) = 1%nat /\ r_ph r1 = PIdle /\
    map fst (rev (l_trace (r_l r1))) = [50000000; 50000000; 50000000].
Proof. eexists. split; [vm_compute; reflexivity|]. repeat split. Qed.
