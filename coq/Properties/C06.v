(** C06 — a rejected request changes nothing. [api_step] is the model of api.go and the
    collections, handler by handler in the order of effects of the Go code; routes, status codes,
    the toxic registry and whether a toxic update decodes into the live object come from the
    source. The server state compared here is the whole configuration the API can show and the
    attribute values every running stage reads. *)
From Coq Require Import String.
From TP Require Import Model.Prelude Extracted Model.Json Model.Api Proofs.ApiProofs.

(** UpdateToxicJson decodes the body into a copy of the toxic and installs it on success *)
Theorem C06_update_decodes_into_copy : update_in_place = false.
Proof. reflexivity. Qed.
Print Assumptions C06_update_decodes_into_copy.

Theorem C06_rejected_unchanged : forall e s r,
  rejected (fst (api_step e s r)) ->
  snd (api_step e s r) = s \/
  (status (fst (api_step e s r)) = status_internal /\
   exists h, fst (route routes (r_meth r) (r_path r) false) = Some h /\
             (h = "ProxyUpdate" \/ h = "Populate" \/ h = "ResetState")%string).
Proof. exact (rejected_unchanged C06_update_decodes_into_copy). Qed.
Print Assumptions C06_rejected_unchanged.

(** ... so every later request - the same one corrected, a read, a change or a removal by name - is
    answered as if the rejected request had never been made, and so is every sequence of them (the
    statement the with / without differential of the check tests on the server) *)
Theorem C06_as_if_never_made : forall e s r rs,
  rejected (fst (api_step e s r)) -> status (fst (api_step e s r)) <> status_internal ->
  api_run e (snd (api_step e s r)) rs = api_run e s rs.
Proof.
  intros e s r rs Hrej Hst. destruct (C06_rejected_unchanged e s r Hrej) as [Heq|[Hint _]].
  - rewrite Heq. reflexivity.
  - contradiction.
Qed.
Print Assumptions C06_as_if_never_made.

Theorem C06_populate_all_or_nothing : forall e s b,
  match b with
  | BJson (JArr items) => snd (dec_populate items) = true \/ populate_valid (fst (dec_populate items)) = false
  | BJson JNull => False
  | _ => True
  end ->
  snd (h_populate e s b) = s /\ 400 <= status (fst (h_populate e s b)) < 500.
Proof.
  intros e s b. unfold h_populate. destruct b as [| |[]]; try easy.
  destruct (dec_populate _) as [ins bad]; cbn [fst snd]. intros [->| ->]; [easy|now destruct bad].
Qed.
Print Assumptions C06_populate_all_or_nothing.

(** the decoder really is the partial-assignment one (so the theorem above is not vacuous): an
    ill-typed field is skipped, later fields are still assigned, and an error is reported *)
Example C06_partial_decode :
  dec_attrs [("latency", 100); ("jitter", 0)]%string
            (JObj [("latency", JInt 500); ("jitter", JStr "bad")]%string)
  = ([("latency", 500); ("jitter", 0)]%string, true).
Proof. reflexivity. Qed.
