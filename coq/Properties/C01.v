(** C01 — relayed byte streams are exact (one direction of one connection; every chain of
    data-preserving toxics; every payload, chunking and pacing; every schedule
    of reader, stages and writer, with time passing arbitrarily between steps).
    [sched_run] is the all-schedules system; [run_quiet] is the executable schedule that the
    correspondence harness compares with the real code to the nanosecond. *)
From TP Require Import Model.Prelude Extracted Model.Toxics Model.Timed
     Proofs.StageContract Proofs.LinkSteps Proofs.LinkInv Proofs.LinkStatic Proofs.C01Proofs Proofs.Progress Proofs.C01Live
     Model.Reconf Model.ReconfRun Model.MultiRun Proofs.ReconfRunProofs.

(** delivered ++ in flight ++ not yet read = what the sender wrote, in every reachable state *)
Theorem C01_safety : forall chain src draws sd sigma l,
  chain_ok chain ->
  sched_run (link_init_slow chain src draws sd) sigma = Some l ->
  sink_bytes l ++ flow (l_stubs l) ++ pending l = src_bytes src.
Proof. intros chain src draws sd sigma l Hc Hrun. exact (proj2 (proj2 (proj2 (reachable_invariants _ _ _ _ _ _ Hc Hrun)))). Qed.
Print Assumptions C01_safety.

(** hence what the receiver has got is always a prefix of what was sent: nothing lost,
    duplicated, reordered or altered *)
Theorem C01_prefix : forall chain src draws sd sigma l,
  chain_ok chain ->
  sched_run (link_init_slow chain src draws sd) sigma = Some l ->
  is_prefix (sink_bytes l) (src_bytes src).
Proof.
  intros chain src draws sd sigma l Hc Hrun. eexists. symmetry. eapply C01_safety; eassumption.
Qed.
Print Assumptions C01_prefix.

(** the executable schedule is one of the schedules the theorem covers *)
Theorem C01_quiet_is_a_schedule : forall fuel horizon l l',
  run_quiet fuel horizon l = Some l' -> exists sigma, sched_run l sigma = Some l'.
Proof. exact run_quiet_sched. Qed.
Print Assumptions C01_quiet_is_a_schedule.

Theorem C01_safety_quiet : forall chain src draws sd fuel horizon l,
  chain_ok chain ->
  run_quiet fuel horizon (link_init_slow chain src draws sd) = Some l ->
  sink_bytes l ++ flow (l_stubs l) ++ pending l = src_bytes src.
Proof.
  intros chain src draws sd fuel horizon l Hc Hrun. destruct (run_quiet_sched _ _ _ _ Hrun) as [sigma Hs].
  eapply C01_safety; eassumption.
Qed.
Print Assumptions C01_safety_quiet.

(** no stage panics or diverges on any schedule *)
Theorem C01_never_dead : forall chain src draws sd sigma l,
  chain_ok chain ->
  sched_run (link_init_slow chain src draws sd) sigma = Some l ->
  Forall (fun s => mode_of (s_st s) <> MDead) (l_stubs l).
Proof.
  intros chain src draws sd sigma l Hc Hrun. destruct (reachable_invariants _ _ _ _ _ _ Hc Hrun) as (Hok & _).
  eapply Forall_impl; [|exact Hok].
  intros s (_ & _ & Hw & _). eapply wf_not_dead; exact Hw.
Qed.
Print Assumptions C01_never_dead.

(** a static link never gives up on a hand-off (the 5 s WriteOutput timeout is unreachable) *)
Theorem C01_no_give_up : forall l i, static_link l -> stub_send_timeout l i = None.
Proof. exact static_no_send_timeout. Qed.
Print Assumptions C01_no_give_up.

(** ... tied to the code by a regenerated fact: in toxics/*.go every hand-off with a time limit
    (WriteOutput) sits in a select arm that received from stub.Interrupt, and plain hand-offs are
    never select arms - [static_st] (no [SendT], no [Send _ KExit]) is what a stage can reach
    without an interrupt *)
Theorem C01_give_up_only_when_interrupted : give_up_only_when_interrupted = true /\ toxic_sends_are_plain = true.
Proof. split; reflexivity. Qed.
Print Assumptions C01_give_up_only_when_interrupted.

(** the per-stage facts everything above rests on (any toxic proved to satisfy them inherits
    the link theorems) *)
Theorem C01_stage_input : forall tx ps now draws (c : option chunk) acc tmr s' ds,
  attrs_ok tx -> wf tx (Idle acc tmr) -> pstate_ok tx ps ->
  on_input tx ps now draws c (Idle acc tmr) = (s', ds) ->
  wf tx s' /\ match c with Some ch => keeps tx (cdata ch) (held s') | None => held s' = [] end.
Proof.
  intros tx ps now draws c acc tmr s' ds _ Hwf Hps H.
  pose proof (on_input_wf tx ps now draws c acc tmr Hwf) as X. now rewrite H in X.
Qed.
Print Assumptions C01_stage_input.

Theorem C01_stage_sent : forall tx ps now (c : chunk) k s' ps',
  attrs_ok tx -> wf tx (Send c k) -> pstate_ok tx ps ->
  on_sent tx ps now (Send c k) = (s', ps') ->
  wf tx s' /\ pstate_ok tx ps' /\ held (Send c k) = cdata c ++ held s'.
Proof.
  intros tx ps now c k s' ps' _ Hwf Hps H.
  pose proof (on_sent_wf tx ps now _ c Hwf Hps eq_refl) as X. now rewrite H in X.
Qed.
Print Assumptions C01_stage_sent.

Theorem C01_stage_interrupt : forall tx now s,
  wf tx s -> wf tx (on_interrupt now s) /\ held (on_interrupt now s) = held s.
Proof. exact on_interrupt_wf. Qed.
Print Assumptions C01_stage_interrupt.

(** an idle, closing or exited stage holds nothing *)
Theorem C01_stage_quiescent : forall s,
  match mode_of s with MSelect true _ _ | MClose | MExit => held s = [] | _ => True end.
Proof. now destruct s. Qed.
Print Assumptions C01_stage_quiescent.

(** ---- liveness half (no deadlock). On ANY schedule of a link of data-preserving toxics: a state
    in which nothing can move (no stage, not the reader) and nothing is pending (no timer, no pause
    of the receiver, no source event) is a completed transfer - nothing is held anywhere, the
    receiver has exactly what the sender wrote, and if the sender closed then every stage has exited
    and the receiver has been closed. Proved through the closure-order invariant of
    Proofs/Progress.v (stub i+1's input is closed exactly when stub i has closed; a stage closes only
    after its input was closed and drained). *)
Theorem C01_no_deadlock : forall chain src draws sd sigma l,
  chain_ok chain ->
  sched_run (link_init_slow chain src draws sd) sigma = Some l ->
  step_now l = None -> next_time l = None ->
  flow (l_stubs l) = [] /\
  match l_rd l with
  | RSend _ => False
  | RIdle => l_rest l = [] /\ l_src l = [] /\ sink_bytes l = src_bytes src
  | RClosed => sink_bytes l = src_bytes src /\ Forall (fun s => s_st s = Exited) (l_stubs l) /\ l_sink_closed l <> None
  end.
Proof.
  intros chain src draws sd sigma l Hc Hrun Hnow Hnext. destruct (reachable_invariants _ _ _ _ _ _ Hc Hrun) as (Hok & _ & Hci & <-).
  destruct (no_deadlock l Hok Hci Hnow Hnext) as (-> & Hflow & Hrd). split; [exact Hflow|].
  destruct (l_rd l); [destruct Hrd; auto|exact Hrd|].
  destruct Hrd as [Hg Hsc]. split; [reflexivity|]. split; [exact (Forall_impl _ (fun s => @proj1 _ _) Hg)|exact Hsc].
Qed.
Print Assumptions C01_no_deadlock.

(** the executable run - the one compared with the real code to the nanosecond - stops only when
    the transfer is complete (or at the horizon / out of fuel, which the statement excludes) *)
Theorem C01_complete : forall chain src draws sd fuel horizon l,
  chain_ok chain ->
  run_quiet fuel horizon (link_init_slow chain src draws sd) = Some l ->
  next_time l = None ->
  sink_bytes l = src_bytes src /\ flow (l_stubs l) = [] /\
  (l_rd l = RClosed -> Forall (fun s => s_st s = Exited) (l_stubs l) /\ l_sink_closed l <> None).
Proof.
  intros chain src draws sd fuel horizon l Hc Hrun Hnext.
  pose proof (run_quiet_stops _ _ _ _ Hrun) as Hnow.
  destruct (run_quiet_sched _ _ _ _ Hrun) as [sigma Hs].
  destruct (C01_no_deadlock chain src draws sd sigma l Hc Hs Hnow Hnext) as [Hflow Hrd].
  destruct (l_rd l).
  - destruct Hrd as (_ & _ & Hb). split; [exact Hb|]. split; [exact Hflow|]. discriminate.
  - contradiction.
  - destruct Hrd as (Hb & Hg & Hsc). auto.
Qed.
Print Assumptions C01_complete.

(** the invariant itself, one step of any schedule *)
Theorem C01_closure_order_step : forall l a l',
  link_ok l -> static_link l -> closure_inv l -> sched_step l a = Some l' -> closure_inv l'.
Proof. exact closure_step. Qed.
Print Assumptions C01_closure_order_step.

(** "independently of all other connections": in the executable runs with several connections of one
    proxy under a common history of operations (Model/MultiRun.v, compared with the real code per
    connection to the nanosecond), what happens on connection k is an interleaving of the
    all-schedules system of that connection alone, whatever the other connections do - they share
    nothing but the schedule of the operations. Every theorem about [mixed_run] / [sched_run]
    therefore holds for each connection of such a run. *)
Theorem C01_independent_of_other_connections : forall fuel horizon m m' k r,
  mrun_quiet fuel horizon m = Some m' -> nth_error (m_links m) k = Some r ->
  exists r' sigma, nth_error (m_links m') k = Some r' /\ mixed_run (r_l r) sigma = Some (r_l r').
Proof. exact mrun_link_is_an_interleaving. Qed.
Print Assumptions C01_independent_of_other_connections.

(** the reader goroutine closes the chain's input and nothing else, and waits for nothing (regenerated):
    end-of-stream reaches the receiver only behind everything sent before the close *)
Theorem C01_reader_closes_only_its_input : reader_closes_only_its_input = true.
Proof. reflexivity. Qed.
Print Assumptions C01_reader_closes_only_its_input.
