(** C18 — ChanWriter/ChanReader form a lossless FIFO byte pipe.
    The theorems are about the model of stream/io_chan.go instantiated with what the translator
    extracted from the current source ([Extracted.read_early], [Extracted.writer_copies]). An action
    list is a list of writes, a list of read-buffer sizes and an availability schedule all at once. *)
From TP Require Import Model.Prelude Model.Stream Proofs.StreamProofs Proofs.C18Proofs Extracted.

Theorem C18_lossless : forall (l : list action) (p : pipe),
  run read_early writer_copies pipe_init l = Some p ->
  is_prefix (returned p) (script_written l) /\
  returned p ++ carry_bytes p ++ queued p = script_written l /\
  (eof p = true -> returned p = script_written l /\ closed p = true).
Proof. exact (lossless read_early extracted_early_ok). Qed.
Print Assumptions C18_lossless.

Theorem C18_read_bounded_progress : forall (l : list action) (p p' : pipe) (o : nat) (intr : bool),
  run read_early writer_copies pipe_init l = Some p ->
  step read_early writer_copies p (ARead o intr) = Some p' ->
  lastn p' <= Z.of_nat o /\
  ((0 < o)%nat -> 0 < lastn p' \/ eof p' = true \/ intr = true \/
                  queue p' = tl (queue p) /\ (queue p <> [] \/ closed p = true)).
Proof. exact (fun l p p' o intr _ => read_bounded_progress read_early extracted_early_ok p p' o intr). Qed.
Print Assumptions C18_read_bounded_progress.

Theorem C18_eof_after_close : forall (l : list action) (p : pipe) (o : nat),
  run read_early writer_copies pipe_init l = Some p ->
  closed p = true -> queue p = [] -> carry_bytes p = [] -> (0 < o)%nat ->
  exists p', step read_early writer_copies p (ARead o false) = Some p' /\ eof p' = true /\ lastn p' = 0.
Proof. exact (fun l p o _ => eof_after_close read_early extracted_early_ok p o). Qed.
Print Assumptions C18_eof_after_close.

(** The writer never retains the caller's buffer: scribbling on it (AMutate) at any point of any
    script does not change anything a read returns. Stated by erasing the AMutate actions. *)
Theorem C18_no_alias : forall (l : list action) (p : pipe),
  run read_early writer_copies pipe_init l = Some p ->
  exists q, run read_early writer_copies pipe_init (erase_mutate l) = Some q /\
            returned p = returned q /\ eof p = eof q /\ lastn p = lastn q.
Proof.
  rewrite extracted_writer_copies. intros l p Hrun.
  destruct (no_alias read_early l pipe_init p [] (Forall_nil _) Hrun) as (c & Hq).
  exists (with_caller p c). now split.
Qed.
Print Assumptions C18_no_alias.

Theorem C18_interrupt_no_loss : forall (b : bytes) (o : nat) av buf' out c,
  read read_early (Some b) o av true = RRet buf' out EInterrupted c ->
  b = [] /\ out = [] /\ buf' = Some [] /\ c = false.
Proof. exact (interrupt_no_loss read_early extracted_early_ok). Qed.
Print Assumptions C18_interrupt_no_loss.

(** Regression witnesses (about fixed definitions, independent of the current source). Writes
    "abcdefgh", "ijk" (as 1..8 and 9..11), 3-byte reads. *)
Theorem C18_lossless_refuted_pinned :
  exists l p, run early_pinned true pipe_init l = Some p /\ ~ is_prefix (returned p) (script_written l).
Proof.
  exists [AWrite [1;2;3;4;5;6;7;8]; AWrite [9;10;11]; AClose; ARead 3 false; ARead 3 false; ARead 3 false; ARead 3 false].
  eexists. split; [vm_compute; reflexivity|].
  intros [r Hr]. vm_compute in Hr. discriminate.
Qed.
Print Assumptions C18_lossless_refuted_pinned.

(** If Write sent the caller's buffer itself, a later overwrite would change what is read. *)
Theorem C18_no_alias_needs_copy :
  exists l p, run (fun o n _ => n =? o) false pipe_init l = Some p /\ returned p <> script_written l.
Proof.
  exists [AWrite [1;2;3]; AMutate [7;7;7]; ARead 3 false]. eexists.
  split; [vm_compute; reflexivity|]. vm_compute. discriminate.
Qed.
Print Assumptions C18_no_alias_needs_copy.

(** [io.Copy] into the writer goes through [Write], and out of the reader through [Read], which is what
    the theorems above are about: the writer has no [ReadFrom] and the reader no [WriteTo] (their
    exported method sets, regenerated from stream/io_chan.go) *)
From Coq Require Import String.
Theorem C18_copy_goes_through_write_and_read :
  chan_writer_methods = ["Close"; "Write"]%string /\ chan_reader_methods = ["Read"; "SetInterrupt"]%string.
Proof. split; reflexivity. Qed.
Print Assumptions C18_copy_goes_through_write_and_read.
