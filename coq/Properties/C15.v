(** C15 — finished connections leave nothing behind (partial: the model exhibits which processes
    of a link can still be blocked in a terminal state; sockets, file descriptors and the
    bookkeeping maps are observed by the harness). *)
From TP Require Import Model.Prelude Extracted Model.Toxics Model.Timed.

(** a state in which nothing can ever happen again *)
Definition terminal (l : link) : Prop := step_now l = None /\ next_time l = None.

(** every process of the link has finished: the reader has closed its channel, every stage has
    returned and closed its stub, the writer has closed the destination *)
Definition all_done (l : link) : Prop :=
  l_rd l = RClosed /\ Forall (fun s => s_st s = Exited /\ s_closed s = true) (l_stubs l) /\ l_sink_closed l <> None.

(** finding F7 (known) on the faithful model: limit_data 1, two writes, then the sender closes. The
    stage closes its stub after the first byte; the noop before it has already taken the second
    chunk and is blocked for ever handing it to a stage that no longer receives; the reader
    finishes, but that stage never does. *)
Theorem C15_final_is_clean_refuted :
  exists l, run_quiet 100 1000000000 (link_init [(TLimitData 1, true)] [SWrite 0 [1;2]; SWrite 0 [3]; SClose 5] []) = Some l /\
            terminal l /\ ~ all_done l /\
            exists s, nth_error (l_stubs l) 0 = Some s /\ (exists c k, s_st s = Send c k).
Proof.
  eexists. split; [vm_compute; reflexivity|]. split; [split; vm_compute; reflexivity|].
  split.
  - intros (_ & H & _). inversion H as [|? ? [H1 _] _]. discriminate.
  - eexists. split; [reflexivity|]. eexists. eexists. reflexivity.
Qed.
Print Assumptions C15_final_is_clean_refuted.

(** the clean case the code handles: the same chain when the stream fits the limit ends with every
    process done *)
Theorem C15_clean_when_nothing_pending :
  exists l, run_quiet 100 1000000000 (link_init [(TLatency 5 0, true); (TSlowClose 7, true)] [SWrite 0 [1;2]; SWrite 3 [3]; SClose 5] []) = Some l /\
            terminal l /\ all_done l /\ sink_bytes l = [1;2;3].
Proof.
  eexists. split; [vm_compute; reflexivity|]. split; [split; vm_compute; reflexivity|].
  split; [|vm_compute; reflexivity].
  split; [vm_compute; reflexivity|]. split; [|vm_compute; discriminate].
  vm_compute. repeat constructor.
Qed.
Print Assumptions C15_clean_when_nothing_pending.

(** the benign cells of the matrix, as a theorem over all schedules: a link of data-preserving
    toxics whose sender has closed and on which nothing can happen any more has no process left -
    the reader has finished, every stage has returned and closed its stub, the writer has closed
    the receiver - and everything was delivered (corollary of C01_no_deadlock) *)
From TP Require Import Proofs.LinkInv Proofs.C01Proofs Proofs.Progress Proofs.C01Live.
Theorem C15_preserving_chains_end_clean : forall chain src draws sd sigma l,
  chain_ok chain ->
  sched_run (link_init_slow chain src draws sd) sigma = Some l ->
  terminal l -> l_rd l = RClosed -> all_done l /\ sink_bytes l = src_bytes src.
Proof.
  intros chain src draws sd sigma l Hc Hrun [Hnow Hnext] Hrd.
  destruct (reachable_invariants _ _ _ _ _ _ Hc Hrun) as (Hok & _ & Hci & <-).
  destruct (no_deadlock l Hok Hci Hnow Hnext) as (-> & _ & H). rewrite Hrd in H.
  split; [|reflexivity]. split; [exact Hrd|exact H].
Qed.
Print Assumptions C15_preserving_chains_end_clean.

(** the bookkeeping, on every schedule of the lifecycle model of a proxy incarnation (clients
    connecting, upstream dials succeeding or failing, links ending in any order - whoever ended the
    connection -, stop() at any point or never): whenever every link that was started has ended
    and the accept loop is not in the middle of setting a connection up, the connection table is
    empty and no socket is open. Rests on four facts regenerated from proxy.go / link.go. *)
From TP Require Import Model.Proxy Proofs.ProxyProofs.
Theorem C15_code_facts :
  free_blocker_waits_for_accept_loop = true /\ conn_key_is_dest = true /\
  registers_before_links = true /\ writer_deregisters_its_name = true.
Proof. repeat split. Qed.
Print Assumptions C15_code_facts.

Theorem C15_nothing_left_when_links_ended : forall l s,
  prun px_init l = Some s -> x_links s = [] -> (x_acc s = APending \/ x_acc s = ADone) ->
  x_table s = [] /\ x_open s = [].
Proof. intros l s Hr. exact (Inv_nothing_left s (run_inv eq_refl eq_refl eq_refl l s Hr)). Qed.
Print Assumptions C15_nothing_left_when_links_ended.

(** the premise is met: two connections, one whose dial fails, links ending in mixed order, a stop *)
Example C15_books_nonvacuous :
  exists s, prun px_init [PAccept; PDialOk; PRegister; PLink1; PLink2; PAccept; PDialFail; PAccept; PDialOk; PRegister;
                          PLinkEnd 1; PLink1; PLink2; PStopKill; PLinkEnd 4; PFreeBlocker1; PLinkEnd 0; PAcceptFail;
                          PFreeBlocker2; PStopWaited; PStopCloseAll; PLinkEnd 5]%nat = Some s /\
            x_links s = [] /\ x_acc s = ADone /\ x_table s = [] /\ x_open s = [].
Proof. eexists. split; [vm_compute; reflexivity|]. repeat split. Qed.

(** a populate entry that replaces a proxy stops the old incarnation - directly in the branch that found
    it, before the replacement is started or filed, whatever the replacement's address and enabled flag
    (regenerated from ProxyCollection.AddOrReplace); what stop() then guarantees is the lifecycle theorem *)
Theorem C15_replace_stops_the_old_proxy : replace_stops_the_old_proxy = true.
Proof. reflexivity. Qed.
Print Assumptions C15_replace_stops_the_old_proxy.
