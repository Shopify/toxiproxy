(** C12 — slicer re-chunks without changing the stream, within its size bound.
    [slicer_chunk] is toxics/slicer.go's chunk with the four expressions extracted from the source
    (base test, mid point, random offset and its argument); [stage_emit] runs one slicer stage in
    isolation with its timers firing at their deadlines and an optional interrupt in the k-th wait. *)
From TP Require Import Model.Prelude Extracted Model.Toxics Proofs.GoArith Proofs.SlicerProofs Proofs.StageContract
     Proofs.StageRun Proofs.C12Proofs.

(** for 0 <= size_variation < average_size (ints, i.e. below 2^63; offsets are slice indices, likewise), every size and every sequence of random draws: the
    recursion terminates within size+1 levels and the offsets partition [start,end) into
    consecutive non-empty pieces of at most average_size + size_variation bytes *)
Theorem C12_chunk_spec : forall (fuel : nat) avg var start end_ draws,
  0 <= var < avg -> avg < two63 -> 0 <= start -> end_ < two63 -> start <= end_ -> (Z.to_nat (end_ - start) < fuel)%nat ->
  exists os ds, slicer_chunk fuel avg var start end_ draws = CROk os ds /\
                covers os start end_ /\ (start < end_ -> pieces_within (avg + var) os).
Proof. exact slicer_chunk_spec. Qed.
Print Assumptions C12_chunk_spec.

(** a whole input chunk through the stage, uninterrupted: the pieces concatenate to the input
    (nothing held at the end), each is non-empty and at most avg+var long, and consecutive pieces
    are offered at least delay microseconds apart *)
Theorem C12_chunk_through : forall avg var delay,
  0 <= var < avg ->
  forall ps now draws (c : chunk) fuel,
  avg < two63 -> zlen (cdata c) < two63 ->
  0 < zlen (cdata c) ->
  let s := fst (on_input (TSlicer avg var delay) ps now draws (Some c) (Idle 0 None)) in
  let r := stage_emit (TSlicer avg var delay) ps now fuel None s in
  emitted r ++ held (final_st r) = cdata c /\
  Forall (fun e => 0 < zlen (snd e) <= avg + var) (fst (fst r)) /\
  gaps_ok (slicer_delay_ns delay) (map fst (fst (fst r))).
Proof.
  intros avg var delay Hguard ps now draws c fuel Havg Hbig Hlen. cbn [on_input].
  (* the pieces are within the bound because the offsets are *)
  destruct (slicer_chunk_spec (S (Z.to_nat (zlen (cdata c)))) avg var 0 (zlen (cdata c)) draws Hguard
              Havg ltac:(lia) Hbig (zlen_nonneg _) ltac:(lia)) as (os & d2 & -> & Hcov & Hpw).
  assert (Hc : slicer_cov c os 0 (zlen (cdata c))) by (split; [exact Hcov|lia]).
  destruct (slicer_next_wf avg var delay c os 0 _ Hc) as [Hw Hk]. cbn [fst].
  split; [etransitivity; [now apply stage_emit_exact|exact Hk]|].
  destruct (slicer_emit_spec avg var delay _ fuel ps now _ Hw (slicer_next_sized _ c os 0 _ Hc (Hpw Hlen))) as (H1 & H2 & _).
  now split.
Qed.
Print Assumptions C12_chunk_through.

(** interrupted (update / removal) in any wait, i.e. at any piece boundary: what was emitted plus
    what is still held is exactly the input - nothing lost or duplicated (for every attribute
    value, since the repair of F5a) *)
Theorem C12_stream_exact : forall avg var delay ps now draws (c : chunk) fuel intr_at,
  let s := fst (on_input (TSlicer avg var delay) ps now draws (Some c) (Idle 0 None)) in
  let r := stage_emit (TSlicer avg var delay) ps now fuel intr_at s in
  emitted r ++ held (final_st r) = cdata c.
Proof.
  intros avg var delay ps now draws c fuel intr_at s r.
  destruct (on_input_wf (TSlicer avg var delay) ps now draws (Some c) 0 None I) as [Hw <-].
  apply stage_emit_exact; [exact Hw|exact I].
Qed.
Print Assumptions C12_stream_exact.

(** after a piece the stage waits [delay] microseconds; the wait ends by the timer or by an interrupt *)
Theorem C12_wait_after_piece : forall avg var delay ps now (pc c' : chunk) rest o tot,
  on_sent (TSlicer avg var delay) ps now (Send pc (KSlNext c' rest o tot)) =
  (SlWait c' rest o tot (now + slicer_delay_ns delay), ps).
Proof. reflexivity. Qed.
Print Assumptions C12_wait_after_piece.

(** an interrupt is honoured only in the wait after a piece: the remainder goes out as one piece
    and the stage exits holding nothing *)
Theorem C12_interrupt : forall now (c : chunk) rest o tot dl,
  on_interrupt now (SlWait c rest o tot dl) = Send c KExit /\
  held (Send c KExit) = cdata c /\
  (forall tx ps, on_sent tx ps now (Send c KExit) = (Exited, ps)) /\ held Exited = [].
Proof. repeat split; simpl; now rewrite ?app_nil_r. Qed.
Print Assumptions C12_interrupt.

Theorem C12_send_not_interruptible : forall (c : chunk) k now, on_interrupt now (Send c k) = Send c k.
Proof. reflexivity. Qed.
Print Assumptions C12_send_not_interruptible.

(** regenerated from toxics/*.go on every run: in no built-in toxic is the hand-off `stub.Output <- x`
    an arm of a select - which is what makes [Send] states deaf to interrupts in the model *)
Theorem C12_sends_are_plain : toxic_sends_are_plain = true.
Proof. reflexivity. Qed.
Print Assumptions C12_sends_are_plain.

(** outside the documented range the recursion still terminates and partitions the chunk; the
    pieces are non-empty but their size is not bounded by the attributes, whose arithmetic may wrap (C07; the pinned code diverged on 0/0: F5a) *)
Theorem C12_total_any_attributes : forall (fuel : nat) avg var start end_ draws,
  start <= end_ -> (Z.to_nat (end_ - start) < fuel)%nat ->
  exists os ds, slicer_chunk fuel avg var start end_ draws = CROk os ds /\
                covers os start end_ /\ (start < end_ -> pieces_within (end_ - start) os).
Proof. exact slicer_chunk_total. Qed.
Print Assumptions C12_total_any_attributes.
