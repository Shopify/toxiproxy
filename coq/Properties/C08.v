(** C08 — latency toxic delays every piece by latency +/- jitter, without throttling.
    Stage-level statements about toxics/latency.go as modelled (delay(), the sleep computation and
    the units are extracted from the source). [ms_ok] bounds magnitudes so that Duration arithmetic
    does not wrap (about +/- 146 years). *)
From TP Require Import Model.Prelude Extracted Model.Toxics Model.Timed Proofs.StageContract
     Proofs.StageRun Proofs.TimingProofs.

(** every drawn delay lies in [latency - jitter, latency + jitter) ms; it is latency when jitter <= 0 *)
Theorem C08_delay_range : forall lat jit draws,
  ms_ok lat -> ms_ok jit ->
  exists d ds, latency_delay lat jit draws = (Some d, ds) /\
    (if 0 <? jit then (lat - jit) * 1000000 <= d < (lat + jit) * 1000000 else d = lat * 1000000).
Proof. exact latency_delay_range. Qed.
Print Assumptions C08_delay_range.

(** a chunk stamped ts by the proxy's reader and picked up by the stage at at_ is forwarded, whole
    and unchanged, at max(at_, ts + d) when the receiver is ready: never before ts + d, and exactly
    at ts + d unless the stage was still busy with an earlier chunk - the delay counts from arrival,
    not from pick-up, so a burst (any size: the stamp is taken before the hand-off that may block)
    is delayed once and throughput is not reduced *)
Theorem C08_emit_time : forall lat jit ps draws at_ (c : chunk) fuel d ds,
  (1 < fuel)%nat ->
  latency_delay lat jit draws = (Some d, ds) ->
  let s1 := fst (on_input (TLatency lat jit) ps at_ draws (Some c) (Idle 0 None)) in
  let r := stage_emit (TLatency lat jit) ps at_ fuel None s1 in
  fst (fst r) = [(Z.max at_ (cts c + d), cdata c)] /\ final_st r = Idle 0 None.
Proof.
  intros lat jit ps draws at_ c fuel d ds Hf Hd. cbv zeta.
  rewrite (latency_one_eq _ _ _ _ _ _ _ _ _ Hf Hd). split; reflexivity.
Qed.
Print Assumptions C08_emit_time.

(** a timer never fires before its deadline, on any schedule of the link *)
Theorem C08_not_early : forall l i l',
  stub_timer l i = Some l' ->
  exists s dl, nth_error (l_stubs l) i = Some s /\ stub_deadline s = Some dl /\ dl <= l_now l.
Proof. exact timer_not_early. Qed.
Print Assumptions C08_not_early.

(** order and content: the latency stage meets the preserving contract (see the C01_stage theorems) *)
Theorem C08_order_content : forall lat jit, preserving (TLatency lat jit).
Proof. intros; exact I. Qed.
Print Assumptions C08_order_content.

(** the stamp passed downstream is arrival stamp + sleep; that is the forwarding time only when
    the chunk was picked up the instant it was stamped. Two latency toxics in series therefore
    under-delay a chunk that waited behind another (finding F6). Witness on the executable model:
    100 ms then 50 ms, one byte at 0 and one at 60 ms: the second leaves at 170 ms, 110 ms after
    it arrived instead of 150 ms. *)
Theorem C08_series_refuted :
  exists l, run_quiet 200 1000000000
              (link_init [(TLatency 100 0, true); (TLatency 50 0, true)]
                         [SWrite 0 [1]; SWrite 60000000 [2]] []) = Some l /\
            sink_trace l = [(150000000, 1); (170000000, 1)].
Proof. eexists. split; vm_compute; reflexivity. Qed.
Print Assumptions C08_series_refuted.

(** when the first stage is idle at each arrival the delays do add up *)
Theorem C08_series_when_idle :
  exists l, run_quiet 200 1000000000
              (link_init [(TLatency 100 0, true); (TLatency 50 0, true)]
                         [SWrite 0 [1]; SWrite 200000000 [2]] []) = Some l /\
            sink_trace l = [(150000000, 1); (350000000, 1)].
Proof. eexists. split; vm_compute; reflexivity. Qed.
Print Assumptions C08_series_when_idle.

(** ---- sequences: with jitter 0 the stage's run over any sequence of chunks is the closed form
    e_k = max(p_k, stamp_k + latency) (p_k = when the stage picked chunk k up) ... *)
From TP Require Import Proofs.StageFeed Proofs.FeedProofs.
Theorem C08_sequence_closed_form : forall lat fuel, (1 < fuel)%nat -> forall ps, ms_ok lat -> forall arr,
  feed (TLatency lat 0) fuel ps (Idle 0 None) (arrivals arr) = (lat_sched (lat * 1000000) arr, Idle 0 None, ps).
Proof.
  intros lat fuel Hf ps Hl.
  destruct (latency_delay_range lat 0 [] Hl ltac:(unfold ms_ok; lia)) as (d & ds & Hd & ->).
  induction arr as [|[p c] r IH]; [reflexivity|].
  cbn [arrivals map feed feed_one lat_sched fst snd]. fold (arrivals r).
  now rewrite (latency_one_eq _ _ _ _ _ _ _ _ _ Hf Hd), IH.
Qed.
Print Assumptions C08_sequence_closed_form.

(** ... so a burst - chunks stamped at one instant and picked up back to back, however many - leaves
    at one instant, stamp + latency: every chunk is delayed once, counted from its arrival, and the
    toxic does not throttle *)
Theorem C08_burst_is_delayed_once : forall L ts arr,
  Forall (fun pc => cts (snd pc) = ts /\ fst pc <= ts + L) arr ->
  Forall (fun e => fst e = ts + L) (lat_sched L arr).
Proof.
  intros L ts. induction arr as [|[p c] r IH]; intros H; [constructor|].
  inversion H as [|? ? [H1 H2] Hr]. cbn [fst snd] in *. constructor; [cbn [fst]; lia|apply IH; exact Hr].
Qed.
Print Assumptions C08_burst_is_delayed_once.

(** a latency toxic that is created, or whose latency is raised, reaches every connection whose
    stage is not closed, however long that stage is busy handing data to a slow receiver: AddToxic /
    UpdateToxic give up on a link only when the stub is closed, the interrupt they use has no time
    limit, and the new stage is connected and started only after the interrupt succeeded
    (regenerated shape of ToxicLink.AddToxic / UpdateToxic and ToxicStub.InterruptToxic) *)
From TP Require Proofs.ReconfRunProofs.
Theorem C08_reaches_every_open_connection : forall l p w,
  ReconfRun.interrupt_try l p w = ReconfRun.IFalse -> exists s, nth_error (l_stubs l) p = Some s /\ s_closed s = true /\ w = false.
Proof. exact ReconfRunProofs.interrupt_gives_up_only_on_closed. Qed.
Print Assumptions C08_reaches_every_open_connection.

Theorem C08_operation_code_facts :
  interrupt_is_unbounded = true /\ ops_use_plain_interrupt = true /\ add_connects_after_interrupt = true /\
  update_writes_before_interrupt = true.
Proof. repeat split. Qed.
Print Assumptions C08_operation_code_facts.

(** the end of the stream reaches the receiver only through the chain, behind the delayed data: the
    reader goroutine closes the chain's input and nothing else, and waits for nothing (regenerated
    from ToxicLink.read); in the model a stage closes its output only after its input was closed and
    drained (closure order, C01) *)
Theorem C08_end_of_stream_travels_through_the_chain : reader_closes_only_its_input = true.
Proof. reflexivity. Qed.
Print Assumptions C08_end_of_stream_travels_through_the_chain.
