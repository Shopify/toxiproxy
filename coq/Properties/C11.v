(** C11 — limit_data delivers exactly the first N bytes of a connection. *)
From TP Require Import Model.Prelude Extracted Model.Toxics Model.Timed
     Proofs.StageRun Proofs.StageFeed Proofs.C11Proofs Proofs.LinkFrame.

(** every chunking [cs] of every payload, every pacing [ts], every limit N and starting counter k
    for which N - counter does not wrap int64: the stage forwards what [limit_spec] says ... *)
Theorem C11_feed : forall nb fuel, (1 < fuel)%nat -> forall (cs : list chunk) (ts : list Z) k,
  length ts = length cs -> 0 <= k ->
  (forall k', k <= k' -> k' <= k + zlen (concat (map cdata cs)) -> no_wrap nb k') ->
  let r := feed (TLimitData nb) fuel (Some k) (Idle (nb - k) None) (arrivals ts cs) in
  let '(e, k', cl) := limit_spec nb k cs in
  emitted r = e /\ snd r = Some k' /\ final_st r = (if cl then Closing else Idle (nb - k') None).
Proof. intros nb fuel Hf cs ts k Hlen _. apply limit_feed; [lia|exact Hlen]. Qed.
Print Assumptions C11_feed.

(** ... and that is exactly the first max(N - k, 0) bytes of the stream, however it is chunked;
    the counter ends at k + bytes forwarded; the stub closes in the step that forwards the N-th
    byte (for N - k <= 0: on the first chunk, forwarding nothing) *)
Theorem C11_exact_prefix : forall nb cs k,
  let '(e, k', cl) := limit_spec nb k cs in
  e = firstn (Z.to_nat (Z.max (nb - k) 0)) (concat (map cdata cs)) /\
  k' = k + zlen e /\
  (cl = true <-> (cs <> [] /\ nb - k <= zlen (concat (map cdata cs)))).
Proof. exact limit_spec_prefix. Qed.
Print Assumptions C11_exact_prefix.

(** a restart of the stage (reconfiguration of a neighbour, or an update of its own limit)
    re-reads the budget from the per-connection counter kept in the stub *)
Theorem C11_restart : forall nb k now,
  init_state (TLimitData nb) (Some k) now = Idle (limit_remaining nb k) None.
Proof. reflexivity. Qed.
Print Assumptions C11_restart.

Theorem C11_budget_no_wrap : forall nb k, no_wrap nb k -> limit_remaining nb k = nb - k.
Proof. exact limit_remaining_exact. Qed.
Print Assumptions C11_budget_no_wrap.

(** the counter is per stub: no action of a link touches the toxic identities of its stubs
    (and links share no state in the model) *)
Theorem C11_per_link : forall sigma l l', sched_run l sigma = Some l' -> idents l' = idents l.
Proof. exact run_idents. Qed.
Print Assumptions C11_per_link.

(** finding F11 (known): at the wrap boundary N - counter turns positive and the limit is lost *)
Theorem C11_wrap_refuted_pinned : limit_remaining min64 5 = max64 - 4.
Proof. vm_compute. reflexivity. Qed.
Print Assumptions C11_wrap_refuted_pinned.

(** regenerated from link.go on every run: NewState() is reached only for stubs that are new (all of
    them in Start, the appended one in AddToxic); the restarts of existing stubs in AddToxic,
    UpdateToxic and RemoveToxic keep the stub's state object - which is what [CRestart] of
    Model/Reconf.v does with [s_ps] - so the bytes already counted survive every reconfiguration *)
Theorem C11_state_survives_restarts : state_created_only_for_new_stubs = true.
Proof. reflexivity. Qed.
Print Assumptions C11_state_survives_restarts.

(** once the stage has closed its stub the writer's copy ends and the receiver's socket is closed by
    the very next statement - before the writer deregisters the link and the connection, which
    needs locks that other requests may hold for seconds (regenerated from ToxicLink.write: the
    close is a plain statement between the copy and RemoveLink / RemoveConnection, none deferred) *)
Theorem C11_close_is_not_held_back : writer_closes_before_deregistering = true.
Proof. reflexivity. Qed.
Print Assumptions C11_close_is_not_held_back.
