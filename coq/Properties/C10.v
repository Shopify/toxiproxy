(** C10 — timeout toxic black-holes data and closes after exactly the configured time. *)
From TP Require Import Model.Prelude Extracted Model.Toxics Model.Timed Proofs.StageContract
     Proofs.StageFeed Proofs.TimingProofs Proofs.ReconfRunProofs.

(** while a timeout stage runs, nothing is forwarded, whatever arrives and whenever *)
Theorem C10_blackhole : forall t fuel arr ps s,
  wf (TTimeout t) s -> fst (fst (feed (TTimeout t) fuel ps s arr)) = [].
Proof.
  intros t fuel. induction arr as [|[at_ c] arr IH]; intros ps s Hwf; [reflexivity|].
  cbn [feed]. destruct (timeout_feed_one t fuel ps s at_ c Hwf) as [-> Hwf'].
  specialize (IH ps _ Hwf'). now destruct (feed _ _ _ _ arr) as [[e s2] p2].
Qed.
Print Assumptions C10_blackhole.

(** the timer is armed once, when the toxic takes effect on the connection (extracted from the
    source: [timeout_rearms] says whether time.After sits inside the loop) ... *)
Theorem C10_armed_once : timeout_rearms = false.
Proof. reflexivity. Qed.
Print Assumptions C10_armed_once.

(** ... so for T > 0 the deadline start + T survives any amount of traffic: the stub closes at
    start + T, no earlier (C08_not_early applies to every timer) and no later *)
Theorem C10_closes_at_T : forall t fuel start arr ps,
  data_only arr -> timeout_positive t = true ->
  feed (TTimeout t) fuel ps (init_state (TTimeout t) ps start) arr =
  ([], Idle 0 (Some (start + timeout_ns t)), ps).
Proof.
  intros t fuel start arr ps Hd Hp. cbn [init_state]. unfold timeout_arm at 1. rewrite Hp.
  apply timeout_feed_data; [exact Hd|]. rewrite C10_armed_once. discriminate.
Qed.
Print Assumptions C10_closes_at_T.

Theorem C10_timer_closes : forall t now acc dl, on_timer (TTimeout t) now (Idle acc (Some dl)) = Closing.
Proof. reflexivity. Qed.
Print Assumptions C10_timer_closes.

Theorem C10_unit_is_ms : forall t, ms_ok t -> timeout_ns t = t * 1000000.
Proof. exact ms_ns. Qed.
Print Assumptions C10_unit_is_ms.

(** T = 0 (or negative): no timer exists; the connection is held open until the sender closes *)
Theorem C10_T0_holds : forall t fuel start arr ps,
  data_only arr -> timeout_positive t = false ->
  feed (TTimeout t) fuel ps (init_state (TTimeout t) ps start) arr = ([], Idle 0 None, ps) /\
  stub_deadline (mkStub (TTimeout t) true (Idle 0 None) ps [] 0 false false) = None.
Proof.
  intros t fuel start arr ps Hd Hp. split; [|reflexivity]. cbn [init_state]. unfold timeout_arm at 1. rewrite Hp.
  apply timeout_feed_data; [exact Hd|]. intros _ now. unfold timeout_arm. now rewrite Hp.
Qed.
Print Assumptions C10_T0_holds.

(** regression witness for the re-arming variant (finding F2, repaired in /repo): T = 100 ms and a
    chunk every 60 ms move the deadline to 280 ms after three chunks *)
Theorem C10_rearm_refuted :
  let arm now := Some (now + 100000000) in
  fold_left (fun (_ : option Z) now => arm now) [60000000; 120000000; 180000000] (arm 0) = Some 280000000.
Proof. reflexivity. Qed.
Print Assumptions C10_rearm_refuted.

(** ---- removal. RemoveToxic on a timeout toxic interrupts its stage and runs Cleanup, which
    closes the stub ([CInterrupt i] then [CSever i] of Model/Reconf.v; that Cleanup runs before any
    flush is a regenerated ordering fact, see C10_cleanup_before_flush). From any live state of
    the stage: the removal itself delivers nothing, the consumer of the stub sees end-of-stream
    (the next stage, or the writer, which closes the connection), and the stub is from then on a
    wall: on every later schedule it is still dead ... *)
From TP Require Import Model.Reconf Proofs.WallProofs.

Theorem C10_removal_closes : forall l i s acc tmr,
  nth_error (l_stubs l) i = Some s -> s_st s = Idle acc tmr -> s_closed s = false ->
  exists l1 l2,
    ctl_step l (CInterrupt i) = Some l1 /\ ctl_step l1 (CSever i) = Some l2 /\
    wall l2 i /\ sink_bytes l2 = sink_bytes l /\
    match nth_error (l_stubs l2) (S i) with
    | Some t => s_in_closed t = true
    | None => l_sink_closed l2 <> None
    end /\
    (forall sigma l3, sched_run l2 sigma = Some l3 -> wall l3 i).
Proof. exact timeout_removal. Qed.
Print Assumptions C10_removal_closes.

(** ... and a dead stub never acts again: neither its send, its timers, nor a flush, restart,
    splice or second removal aimed at it is enabled. Since the hand-offs to position i+1 are
    exactly stub i's send and the flush of stub i, nothing that is upstream of the removed toxic
    - parked in an earlier stage, in its input buffer, or still to be sent - is ever delivered:
    the stream is not resumed with a hole in it. *)
Theorem C10_wall_is_silent : forall l i, wall l i ->
  sched_step l (AMove i) = None /\ sched_step l (ATimer i) = None /\ sched_step l (ASendTimeout i) = None.
Proof. exact wall_silent_data. Qed.
Print Assumptions C10_wall_is_silent.

Theorem C10_wall_is_silent_ctl : forall l i, wall l i ->
  ctl_step l (CInterrupt i) = None /\ (forall tx eff, ctl_step l (CRestart i tx eff) = None) /\
  ctl_step l (CForward i) = None /\ ctl_step l (CForwardDrop i) = None /\
  ctl_step l (CDelete i) = None /\ ctl_step l (CSever i) = None.
Proof.
  intros l i (s & Hn & Hd). destruct (dead_exited s Hd) as [Hst Hc].
  cbn [ctl_step]. rewrite Hn. unfold listens_interrupt, is_exited. rewrite Hst, Hc. cbn. repeat split.
Qed.
Print Assumptions C10_wall_is_silent_ctl.

(** permanence under later reconfiguration as well (a splice upstream shifts the index down, a stub connected upstream shifts it up) *)
Theorem C10_wall_stays_under_reconfiguration : forall l a l' i, ctl_step l a = Some l' -> wall l i ->
  match a with
  | CDelete j => if (j <? i)%nat then wall l' (i - 1) else wall l' i
  | CInsertAfter j _ _ | CInsertDead j _ => if (j <? i)%nat then wall l' (S i) else wall l' i
  | _ => wall l' i
  end.
Proof. exact wall_ctl. Qed.
Print Assumptions C10_wall_stays_under_reconfiguration.

(** the timeout stage is interruptible in every live state (it never sits in a send) *)
Theorem C10_interruptible : forall now acc tmr,
  mode_of (Idle acc tmr) = MSelect true true tmr /\ on_interrupt now (Idle acc tmr) = Exited.
Proof. split; reflexivity. Qed.
Print Assumptions C10_interruptible.

(** regenerated from link.go on every run: in RemoveToxic the Cleanup call, and the return taken
    when it closed the stub, come before the first WriteOutput and before the goroutine that
    interrupts the previous stub - the order [CInterrupt i; CSever i] above, with no [CForward]
    in between *)
Theorem C10_cleanup_before_flush : remove_cleanup_before_flush = true.
Proof. reflexivity. Qed.
Print Assumptions C10_cleanup_before_flush.

(** the usual position: the timeout toxic is the last of its chain (AddToxic appends). Then after
    its removal the receiver is closed and gets NOTHING more - whatever is parked in earlier stages
    or still arrives - on every schedule: only the last stub ever writes to the receiver
    (Proofs/WallProofs.v: [sink_writer]) and it is dead *)
From TP Require Import Proofs.TxList.
Theorem C10_removed_last_timeout_delivers_nothing : forall l i s acc tmr,
  nth_error (l_stubs l) i = Some s -> s_st s = Idle acc tmr -> s_closed s = false -> S i = length (l_stubs l) ->
  exists l1 l2,
    ctl_step l (CInterrupt i) = Some l1 /\ ctl_step l1 (CSever i) = Some l2 /\
    l_sink_closed l2 <> None /\
    forall sigma l3, sched_run l2 sigma = Some l3 -> sink_bytes l3 = sink_bytes l.
Proof.
  intros l i s acc tmr Hn Hst Hcl Hlast.
  destruct (timeout_removal l i s acc tmr Hn Hst Hcl) as (l1 & l2 & H1 & H2 & Hw & Hb & Hc & _).
  exists l1, l2. split; [exact H1|]. split; [exact H2|].
  assert (Hlen2 : S i = length (l_stubs l2)).
  { rewrite Hlast, <- !(map_length te). fold (tes l2) (tes l). now rewrite (ctl_tes _ _ _ H2), (ctl_tes _ _ _ H1). }
  split.
  - assert (Hnone : nth_error (l_stubs l2) (S i) = None) by (apply nth_error_None; lia). rewrite Hnone in Hc. exact Hc.
  - intros sigma l3 Hrun. destruct (dead_last_stub_freezes_sink sigma l2 l3 i Hw Hlen2 Hrun) as (E & _ & _). congruence.
Qed.
Print Assumptions C10_removed_last_timeout_delivers_nothing.

(** who writes to the receiver at all *)
Theorem C10_only_the_last_stub_writes : forall l a l',
  sched_step l a = Some l' ->
  sink_bytes l' = sink_bytes l \/
  (exists j, a = AMove j /\ S j = length (l_stubs l)) \/ (a = AReader /\ l_stubs l = []).
Proof. exact sink_writer. Qed.
Print Assumptions C10_only_the_last_stub_writes.

(** any position of the removed toxic: what the receiver ever gets after the removal is made of what
    was already delivered or inside the stages BELOW the dead stub at that moment - nothing that
    was parked above it, in its input buffer, or arrives later - on every schedule on which no
    hand-off below it is given up (the 5 s clause of C02). [below k] = delivered ++ held at
    positions >= k is changed by no action but stub k-1's own send (Proofs/Cut.v: [cut_step]) *)
From TP Require Import Proofs.LinkInv Proofs.Cut.
Theorem C10_nothing_crosses_a_dead_stub : forall sigma l l' i,
  wall l i -> Forall stub_ok (skipn (S i) (l_stubs l)) ->
  Forall (fun a => forall j, (S i <= j)%nat -> a <> ASendTimeout j) sigma ->
  sched_run l sigma = Some l' ->
  sink_bytes l' ++ flow (skipn (S i) (l_stubs l')) = sink_bytes l ++ flow (skipn (S i) (l_stubs l)) /\ wall l' i.
Proof. exact nothing_crosses_a_wall. Qed.
Print Assumptions C10_nothing_crosses_a_dead_stub.

Theorem C10_cut : forall k l a l',
  (k <= length (l_stubs l))%nat -> Forall stub_ok (skipn k (l_stubs l)) ->
  sched_step l a = Some l' -> ~ crosses k a ->
  below k l' = below k l /\ Forall stub_ok (skipn k (l_stubs l')) /\ length (l_stubs l') = length (l_stubs l).
Proof. exact cut_step. Qed.
Print Assumptions C10_cut.

(** a timeout toxic that is added reaches every connection whose last stub is not closed, however
    long that stage is busy handing data on: AddToxic gives up on a link only when that stub is
    closed, and connects and starts the new stage only after the interrupt succeeded (regenerated
    shape of ToxicLink.AddToxic and ToxicStub.InterruptToxic) *)
Theorem C10_add_gives_up_only_on_closed : forall l p w,
  ReconfRun.interrupt_try l p w = ReconfRun.IFalse -> exists s, nth_error (l_stubs l) p = Some s /\ s_closed s = true /\ w = false.
Proof. exact ReconfRunProofs.interrupt_gives_up_only_on_closed. Qed.
Print Assumptions C10_add_gives_up_only_on_closed.

Theorem C10_add_code_facts :
  interrupt_is_unbounded = true /\ ops_use_plain_interrupt = true /\ add_connects_after_interrupt = true.
Proof. repeat split. Qed.
Print Assumptions C10_add_code_facts.

(** the connection is closed when the stage closes its stub, not when the locks the writer needs
    afterwards are free (regenerated from ToxicLink.write) *)
Theorem C10_close_is_not_held_back : writer_closes_before_deregistering = true.
Proof. reflexivity. Qed.
Print Assumptions C10_close_is_not_held_back.
