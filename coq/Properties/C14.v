(** C14 — toxicity is the per-connection probability that a toxic applies. *)
From TP Require Import Model.Prelude Extracted Model.Toxics Model.Timed Model.Reconf Model.ReconfRun Proofs.LinkFrame Proofs.C14Proofs
     Proofs.ReconfRunProofs.
From TP Require Proofs.TxList.

(** toxicity 0 affects no connection, for every possible draw *)
Theorem C14_zero_never : forall D k, 0 <= k < D -> applies toxicity_cmp k 0 = false.
Proof. intros D k. rewrite cmp_is_lt. simpl. lia. Qed.
Print Assumptions C14_zero_never.

(** toxicity 1 affects every connection, for every possible draw (the draw is never 1) *)
Theorem C14_one_always : forall D k, 0 <= k < D -> applies toxicity_cmp k D = true.
Proof. intros D k. rewrite cmp_is_lt. simpl. lia. Qed.
Print Assumptions C14_one_always.

(** the decision is taken when a stage starts and never revisited by any link action: the
    (toxic, decision) pair of every stub is the same in every state of every schedule *)
Theorem C14_whole_connection : forall sigma l l',
  sched_run l sigma = Some l' ->
  map (fun s => (s_tx s, s_eff s)) (l_stubs l') = map (fun s => (s_tx s, s_eff s)) (l_stubs l).
Proof. intros sigma l l' H. exact (TxList.tes_idents l l' (run_idents sigma l l' H)). Qed.
Print Assumptions C14_whole_connection.

(** a stage whose decision was "not affected" behaves as a noop, whatever its toxic *)
Theorem C14_unaffected_is_noop : forall tx ps inq cap c1 c2 st,
  eff_tx (mkStub tx false st ps inq cap c1 c2) = TNoop.
Proof. reflexivity. Qed.
Print Assumptions C14_unaffected_is_noop.

(** idealised measure (uniform draw over D equally likely values, toxicity m/D): exactly m of the
    D draws make the toxic apply. Uniformity and independence of math/rand are assumed. *)
Theorem C14_measure_partial : forall m (D : nat), 0 <= m <= Z.of_nat D -> count_applies toxicity_cmp m D = m.
Proof.
  rewrite cmp_is_lt. intros m D Hm. rewrite count_applies_lt; lia.
Qed.
Print Assumptions C14_measure_partial.

(** with "<=" instead of "<", the draw 0 would let a toxicity-0 toxic through *)
Theorem C14_le_would_break_zero : applies TLe 0 0 = true.
Proof. reflexivity. Qed.
Print Assumptions C14_le_would_break_zero.

(** "Changing toxicity through the API takes effect on established connections": the update stores
    the new toxicity before it interrupts the stages, waits for every stage whose stub is not
    closed - however long that stage is busy - and restarts it with a fresh decision. On the model
    of the operation (Model/ReconfRun.v, replayed against the code to the nanosecond): *)
Theorem C14_update_gives_up_only_on_closed : forall l p w,
  interrupt_try l p w = IFalse -> exists s, nth_error (l_stubs l) p = Some s /\ s_closed s = true /\ w = false.
Proof. exact interrupt_gives_up_only_on_closed. Qed.
Print Assumptions C14_update_gives_up_only_on_closed.

(** the update process: once the interrupted stage has returned, the next move restarts it with the
    toxic and the decision of the request *)
Theorem C14_update_restarts_with_the_request : forall r p tx eff,
  r_ph r = PUpd p tx eff true ->
  (exists s, nth_error (l_stubs (r_l r)) p = Some s /\ is_exited s = true /\ s_closed s = false) ->
  exists r', ctl_move r = Some (Some (MCtl (CRestart p tx eff)), r') /\ r_ph r' = PIdle.
Proof.
  intros r p tx eff Hph (s & Hn & Hex & Hcl). unfold ctl_move. rewrite Hph. unfold interrupt_try. rewrite Hn, Hex.
  unfold do_ctl. cbn [ctl_step]. rewrite Hn, Hex, Hcl. eexists. split; reflexivity.
Qed.
Print Assumptions C14_update_restarts_with_the_request.

(** a restart decides afresh: the stage that runs afterwards is the one of the new attributes and of the
    new toxicity decision, started in its initial state, with the stub's per-connection state kept *)
Theorem C14_restart_decides_afresh : forall l p tx eff l',
  ctl_step l (CRestart p tx eff) = Some l' ->
  exists s s', nth_error (l_stubs l) p = Some s /\ nth_error (l_stubs l') p = Some s' /\
    s_tx s' = tx /\ s_eff s' = eff /\ s_inq s' = s_inq s /\
    s_st s' = init_state (if eff then tx else TNoop) (s_ps s') (l_now l).
Proof.
  intros l p tx eff l' H%LinkSteps.ctl_step_does. inversion H.
  exists s. eexists. split; [exact Hn|]. split; [exact (LinkSteps.upd_stub_nth _ _ _ _ Hn)|cbn; auto].
Qed.
Print Assumptions C14_restart_decides_afresh.

(** ... and the shape of the code these rest on, regenerated on every run: Run draws on every start
    and remembers nothing on the stub; UpdateToxicJson stores attributes and toxicity before
    chainUpdateToxic; InterruptToxic is the two-arm select {closed: false | Interrupt: wait for the
    stage, true} with no give-up; the link operations reach the stages through it alone *)
Theorem C14_code_facts :
  run_decides_on_every_start = true /\ update_writes_before_interrupt = true /\
  interrupt_is_unbounded = true /\ ops_use_plain_interrupt = true.
Proof. repeat split. Qed.
Print Assumptions C14_code_facts.

(** every accepted update restarts the stages, so the decision is taken afresh with the new toxicity on
    every open connection whatever else the update changed (regenerated) *)
Theorem C14_update_always_restarts : update_always_restarts = true.
Proof. reflexivity. Qed.
Print Assumptions C14_update_always_restarts.
