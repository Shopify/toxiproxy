(** C13 — slow_close delays only the close; reset_peer ends with a TCP reset (the reset itself is
    kernel behaviour: the model states when the stub closes and which socket option was set). *)
From TP Require Import Model.Prelude Extracted Model.Toxics Model.Timed Proofs.TimingProofs.

(** data is never delayed by slow_close: it goes straight to the send, no timer in between *)
Theorem C13_slow_close_data : forall d ps now draws (c : chunk),
  on_input (TSlowClose d) ps now draws (Some c) (Idle 0 None) = (Send c (KIdle 0), draws).
Proof. reflexivity. Qed.
Print Assumptions C13_slow_close_data.

(** the sender's close is withheld until exactly delay ms later *)
Theorem C13_slow_close_delay : forall d ps now draws,
  on_input (TSlowClose d) ps now draws None (Idle 0 None) = (ScWait (now + slow_close_ns d), draws) /\
  (forall now', on_timer (TSlowClose d) now' (ScWait (now + slow_close_ns d)) = Closing) /\
  (ms_ok d -> slow_close_ns d = d * 1000000).
Proof. repeat split. apply ms_ns. Qed.
Print Assumptions C13_slow_close_delay.

(** an interrupt during the wait makes Pipe return without closing; the restarted stage sees the
    closed input again and starts a new full wait: the close is withheld at least delay after the
    last restart *)
Theorem C13_slow_close_interrupt : forall d now dl,
  on_interrupt now (ScWait dl) = Exited /\ init_state (TSlowClose d) None now = Idle 0 None.
Proof. split; reflexivity. Qed.
Print Assumptions C13_slow_close_interrupt.

(** reset_peer forwards nothing; the first data or close starts an uninterruptible wait of
    timeout ms, after which the stub is closed *)
Theorem C13_reset_peer : forall t ps now draws (c : option chunk),
  on_input (TResetPeer t) ps now draws c (Idle 0 None) = (RpWait (now + reset_peer_ns t), draws) /\
  held (RpWait (now + reset_peer_ns t)) = [] /\
  mode_of (RpWait (now + reset_peer_ns t)) = MSelect false false (Some (now + reset_peer_ns t)) /\
  (forall now', on_timer (TResetPeer t) now' (RpWait (now + reset_peer_ns t)) = Closing) /\
  (forall now', on_interrupt now' (RpWait (now + reset_peer_ns t)) = RpWait (now + reset_peer_ns t)) /\
  (ms_ok t -> reset_peer_ns t = t * 1000000).
Proof. intros t ps now draws c. destruct c; repeat split; apply ms_ns. Qed.
Print Assumptions C13_reset_peer.

Theorem C13_not_early : forall l i l',
  stub_timer l i = Some l' ->
  exists s dl, nth_error (l_stubs l) i = Some s /\ stub_deadline s = Some dl /\ dl <= l_now l.
Proof. exact timer_not_early. Qed.
Print Assumptions C13_not_early.

(** link.go's Start sets SO_LINGER 0 on both sockets, for a reset_peer toxic present at connect
    time, before the writer of that link (the only closer of its destination) is started *)
Theorem C13_linger_before_writer : start_sets_linger_before_writer = true.
Proof. reflexivity. Qed.
Print Assumptions C13_linger_before_writer.

(** an update of reset_peer's timeout (or slow_close's delay) reaches the connections that are open: every
    accepted update restarts the toxic's stage on every connection, whatever it changed (regenerated:
    the attribute write, the toxicity write and chainUpdateToxic are statements of one block) - a
    reset_peer stage reads its timeout when it starts *)
Theorem C13_update_reaches_open_connections : update_always_restarts = true /\ update_writes_before_interrupt = true.
Proof. split; reflexivity. Qed.
Print Assumptions C13_update_reaches_open_connections.
