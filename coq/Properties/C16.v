(** C16 — concurrent requests on a proxy take effect atomically.
    The effect of create / delete / single-entry populate lies inside one critical section of the
    proxy collection, the effect of toxic add / update / remove inside one critical section of the
    proxy's toxic collection (facts extracted from the source). A complete schedule of k such
    requests therefore is a sequential run of [api_step] in the order of those sections: a
    linearization consistent with real time (a section lies between invocation and response).
    The theorems say what every such order implies. *)
From Coq Require Import String.
From Coq Require Import Relations.
From TP Require Import Model.Prelude Extracted Model.Api Proofs.ApiInv Proofs.ConcProofs.
From TP Require Proofs.LockOrderProofs.

Theorem C16_single_section_handlers : collection_mutators_atomic = true /\ toxic_mutators_atomic = true.
Proof. split; reflexivity. Qed.
Print Assumptions C16_single_section_handlers.

(** of any number of concurrent creates of one name - same or different listen addresses - at
    most one succeeds, in every order of their critical sections *)
Theorem C16_one_create_wins : forall e name, name <> ""%string ->
  forall (specs : list (string * string)) s,
  Forall (fun su => snd su <> ""%string) specs ->
  (count_status status_created (fst (run_resps e s (map (fun su => create_req name (fst su) (snd su)) specs))) <= 1)%nat /\
  (find_proxy s name <> None ->
   count_status status_created (fst (run_resps e s (map (fun su => create_req name (fst su) (snd su)) specs))) = 0%nat).
Proof. intros e name _ specs s _. apply creates_once. Qed.
Print Assumptions C16_one_create_wins.

(** of any number of concurrent deletes of an existing proxy exactly one succeeds *)
Theorem C16_one_delete_wins : forall e name, name <> ""%string -> forall (k : nat) s,
  NoDup (map p_name s) ->
  count_status status_no_content (fst (run_resps e s (repeat (delete_req name) k))) =
  match find_proxy s name with Some _ => Nat.min 1 k | None => 0%nat end.
Proof.
  intros e name Hn. induction k as [|k IH]; intros s Hnd; cbn [repeat]; [now destruct (find_proxy s name)|].
  rewrite run_resps_cons, count_status_cons, delete_step by exact Hn. unfold h_proxy_delete.
  destruct (find_proxy s name) eqn:Hf; cbn [fst snd].
  - destruct (uniq_remove s name Hnd) as [Hnd' Hf']. rewrite (IH _ Hnd'), Hf'. now destruct k.
  - now rewrite (IH s Hnd), Hf.
Qed.
Print Assumptions C16_one_delete_wins.

(** finding F9 (known): enable / disable / update are two sections - the lookup under the
    collection's read lock (and the defaults read without any lock), then Proxy.Update under the
    proxy's lock - so a delete can fall in between and Update then starts a proxy nobody lists *)
Theorem C16_update_is_two_sections : proxy_update_two_sections = true.
Proof. reflexivity. Qed.
Print Assumptions C16_update_is_two_sections.

(** No deadlock among the locks. [lock_edges] is regenerated from the working tree: every pair
    (held, requested) over all functions of the two packages - the mutexes of the proxy collection,
    a proxy, its connection list, its toxic collection and the toxic registry, plus the tokens of
    goroutines somebody waits for (the two tombs of the accept loop, the [started] handshake).
    The relation is acyclic (decided by computing a longest-path ranking inside Coq) ... *)
Theorem C16_lock_order_acyclic : LockOrder.lock_order_ok lock_edges = true.
Proof. exact LockOrderProofs.extracted_ranks_ok. Qed.
Print Assumptions C16_lock_order_acyclic.

(** ... hence in every state - any number of threads, of proxies, of held locks - whose threads
    request while holding only what the relation allows, the waits-for graph has no cycle ... *)
Theorem C16_no_cycle_of_waiting_requests : forall st,
  LockOrderProofs.follows lock_edges st ->
  forall i, ~ clos_trans nat (LockOrderProofs.waits_for st) i i.
Proof. exact (LockOrderProofs.no_wait_cycle _ _ LockOrderProofs.extracted_ranks_ok). Qed.
Print Assumptions C16_no_cycle_of_waiting_requests.

(** ... and from every thread, following who holds what it waits for, a thread that waits for no
    lock is reached within [bound] steps: somebody can always run *)
Theorem C16_somebody_runs : forall st i,
  LockOrderProofs.follows lock_edges st ->
  LockOrder.blocker st (LockOrder.chase (LockOrder.bound (LockOrder.compute_ranks lock_edges)) st i) = None.
Proof. exact (LockOrderProofs.chase_ends _ _ LockOrderProofs.extracted_ranks_ok). Qed.
Print Assumptions C16_somebody_runs.

(** the premise is met by a stop request waiting for an accept loop that waits for a toxic request *)
Example C16_lock_order_nonvacuous :
  LockOrder.followsb lock_edges LockOrderProofs.stop_state = true /\
  LockOrder.blocker LockOrderProofs.stop_state 0 = Some 1%nat /\
  LockOrder.chase 3 LockOrderProofs.stop_state 0 = 3%nat /\
  LockOrder.blocker LockOrderProofs.stop_state 3 = None.
Proof. vm_compute. repeat split. Qed.

(** and it is tight: one more edge (the proxy's lock requested under the toxic collection's) admits
    a state in which everybody waits, and the check rejects the relation *)
Example C16_inverted_order_deadlocks :
  let es := (("ToxicCollection", "Proxy")%string :: lock_edges) in
  LockOrder.lock_order_ok es = false /\ LockOrder.followsb es LockOrderProofs.inverted_state = true /\
  forallb (fun i => match LockOrder.blocker LockOrderProofs.inverted_state i with Some _ => true | None => false end)
          [0; 1; 2; 3]%nat = true.
Proof. vm_compute. repeat split. Qed.

(** the same along executions: threads acquire (when the relation allows it under everything they
    hold; they get the lock if nobody holds it and wait otherwise) and release one operation at a
    time, any number of threads and lock instances, from the state in which nobody holds anything:
    every state reached has an acyclic waits-for graph and a thread that can run *)
Theorem C16_executions_never_deadlock : forall n ops st,
  LockOrder.lrun lock_edges (LockOrder.idle_threads n) ops = Some st ->
  (forall i, ~ clos_trans nat (LockOrderProofs.waits_for st) i i) /\
  (forall i, LockOrder.blocker st (LockOrder.chase (LockOrder.bound (LockOrder.compute_ranks lock_edges)) st i) = None).
Proof.
  intros n. exact (LockOrderProofs.ordered_executions _ _ LockOrderProofs.extracted_ranks_ok _ (LockOrderProofs.idle_follows _ n)).
Qed.
Print Assumptions C16_executions_never_deadlock.

(** such an execution with waiting in it reaches the state of the example above *)
Example C16_execution_nonvacuous :
  LockOrder.lrun lock_edges (LockOrder.idle_threads 4)
       [LockOrder.OAcq 3 ("ToxicCollection", 0); LockOrder.OAcq 2 ("acceptTomb", 0); LockOrder.OAcq 1 ("tomb", 0);
        LockOrder.OAcq 0 ("Proxy", 0); LockOrder.OAcq 0 ("tomb", 0); LockOrder.OAcq 1 ("acceptTomb", 0);
        LockOrder.OAcq 2 ("ToxicCollection", 0)]%string%nat = Some LockOrderProofs.stop_state.
Proof. vm_compute. reflexivity. Qed.
