(** C07 — nothing a client or peer sends can take the service down (partial: "the process is
    still alive and answering" is observed on a real server; the model decides which stage
    transitions can panic or diverge - toxic goroutines have no recover, so that is what kills the
    process). *)
From TP Require Import Model.Prelude Extracted Model.Toxics Model.Timed Proofs.SlicerProofs Proofs.StageContract Proofs.C07Proofs
     Model.Api Model.Collection Proofs.C04Proofs Proofs.ReconfInv.

(** every built-in toxic, EVERY attribute value (any int64: negative, zero, extreme), every chunk,
    every draw of the random source, every interrupt: no transition of a stage panics or diverges.
    [wf] is the set of reachable local states (preserved by every transition: C01's stage theorems)
    and [pstate_ok] says a limit_data stage runs on its own stub (C04 below). *)
Theorem C07_stage_total_init : forall tx ps now, pstate_ok tx ps -> mode_of (init_state tx ps now) <> MDead.
Proof. exact (fun tx ps now Hp => wf_not_dead _ _ (proj1 (wf_init tx ps now Hp))). Qed.
Print Assumptions C07_stage_total_init.

Theorem C07_stage_total_input : forall tx ps now draws (c : option chunk) acc tmr,
  wf tx (Idle acc tmr) -> pstate_ok tx ps ->
  mode_of (fst (on_input tx ps now draws c (Idle acc tmr))) <> MDead.
Proof. exact (fun tx ps now draws c acc tmr Hw Hp => wf_not_dead _ _ (proj1 (on_input_wf tx ps now draws c acc tmr Hw))). Qed.
Print Assumptions C07_stage_total_input.

Theorem C07_stage_total_timer : forall tx now s, wf tx s -> mode_of (on_timer tx now s) <> MDead.
Proof. exact (fun tx now s Hw => wf_not_dead _ _ (proj1 (on_timer_wf tx now s Hw))). Qed.
Print Assumptions C07_stage_total_timer.

Theorem C07_stage_total_sent : forall tx ps now (c : chunk) k,
  wf tx (Send c k) -> pstate_ok tx ps -> mode_of (fst (on_sent tx ps now (Send c k))) <> MDead.
Proof. exact (fun tx ps now c k Hw Hp => wf_not_dead _ _ (proj1 (on_sent_wf tx ps now _ c Hw Hp eq_refl))). Qed.
Print Assumptions C07_stage_total_sent.

Theorem C07_stage_total_interrupt : forall tx now s, wf tx s -> mode_of (on_interrupt now s) <> MDead.
Proof. exact (fun tx now s Hw => wf_not_dead _ _ (proj1 (on_interrupt_wf tx now s Hw))). Qed.
Print Assumptions C07_stage_total_interrupt.

(** the slicer's recursion: for every average_size, size_variation, chunk size and draw sequence it
    terminates within size+1 levels, never calls rand.Intn with a non-positive argument, and cuts
    [start, end) into consecutive non-empty pieces *)
Theorem C07_slicer_total : forall fuel avg var start end_ draws,
  start <= end_ -> (Z.to_nat (end_ - start) < fuel)%nat ->
  exists os ds, slicer_chunk fuel avg var start end_ draws = CROk os ds /\
                covers os start end_ /\
                (start < end_ -> pieces_within (end_ - start) os).
Proof. exact slicer_chunk_total. Qed.
Print Assumptions C07_slicer_total.

(** the inputs that killed the pinned code (findings F5a-d, repaired) are harmless on the current
    model, and the pinned arithmetic that made them fatal *)
Theorem C07_f5_inputs_survive :
  dead_after_input (TSlicer 0 0 0) [1] [] = false /\
  dead_after_input (TLatency 0 4611686018427387904) [1] [] = false /\
  (exists l, run_quiet 50 10 (link_init [(TSlicer 10 12 0, true)] [SWrite 0 (repeat 7 23)] [0; 23; 12]) = Some l /\
             existsb (fun s => match s_st s with Panicked _ => true | _ => false end) (l_stubs l) = false) /\
  (exists l, run_quiet 50 1000000000 (link_init [(TBandwidth (-1), true)] [SWrite 0 [1;2;3]] []) = Some l /\
             existsb (fun s => match s_st s with Panicked _ => true | _ => false end) (l_stubs l) = false).
Proof.
  split; [vm_compute; reflexivity|]. split; [vm_compute; reflexivity|].
  split; eexists; split; vm_compute; reflexivity.
Qed.
Print Assumptions C07_f5_inputs_survive.

(** in order. Latency: Int63n's argument jitter*2 wraps to a non-positive value. Bandwidth:
    p.Data[:rate*100] with rate = -1 on a 3-byte chunk. Slicer 10/12 on 23 bytes, draw 0: the split
    point 11 + (0 - 12) lies before the chunk. Slicer 0/0 on one byte: the recursion never reaches a
    base case. *)
Theorem C07_f5_pinned_arithmetic :
  wrap64 (4611686018427387904 * 2) <= 0 /\
  slice_ok 0 (wrap64 (-1 * 100)) 3 = false /\
  ((23 - 0 - 10 <=? 12) = false)%Z /\ slicer_mid_adj (slicer_mid 0 23) 0 12 = -1 /\
  (forall fuel, slicer_chunk_pinned fuel 0 0 0 1 = None).
Proof.
  split; [vm_compute; discriminate|]. split; [vm_compute; reflexivity|].
  split; [reflexivity|]. split; [vm_compute; reflexivity|]. exact slicer_chunk_diverges_pinned.
Qed.
Print Assumptions C07_f5_pinned_arithmetic.

(** a stage is only ever started on the stub of its own toxic (C04's alignment), so limit_data
    always finds its own state: the other way to panic (the type assertion in limit_data.go, on a
    stub that carries no limit_data state) is closed *)
Theorem C07_wrong_state_would_panic : forall nb now, mode_of (init_state (TLimitData nb) None now) = MDead.
Proof. reflexivity. Qed.
Print Assumptions C07_wrong_state_would_panic.

Theorem C07_stubs_stay_aligned : forall ops, aligned (crun ops).
Proof. exact (run_aligned (eq_refl : remove_always_splices = true)). Qed.
Print Assumptions C07_stubs_stay_aligned.

(** the API handlers are total functions: every request, whatever its method, path, body or
    attribute values, gets an answer and leaves a well-defined state *)
Theorem C07_api_total : forall e s r, exists resp s', api_step e s r = (resp, s').
Proof. intros e s r. destruct (api_step e s r) as [resp s']. eauto. Qed.
Print Assumptions C07_api_total.

(** regenerated from api.go on every run: the API server bounds the time a client may take to send a
    request including its body (http.Server.ReadTimeout). The toxic handlers parse the body while
    they hold the proxy's toxic lock, which the accept loop and every listing need: without the
    bound one stalled upload freezes the proxy for as long as the client likes. *)
Theorem C07_api_body_read_is_bounded : 0 < api_body_read_deadline_ns <= 30000000000.
Proof. unfold api_body_read_deadline_ns. lia. Qed.
Print Assumptions C07_api_body_read_is_bounded.

(** attribute updates race with the stages that read the attributes: UpdateToxicJson writes the
    new values into the shared toxic object and only then interrupts the stages. Whatever state a
    stage is in at that moment, and whatever the new values of the same toxic type are, the stage
    stays well-formed and its next timer or interrupt transition does not panic or diverge (input
    and send-completion transitions of a well-formed state are covered above). The premise is the
    regenerated fact that the bandwidth toxic cuts an instalment with the rate its loop test read. *)
Theorem C07_attribute_update_never_crashes_a_stage : forall (old new : toxic) (st : lstate) now,
  bw_cut_uses_tested_rate = true -> same_kind old new = true -> wf old st ->
  wf new st /\ mode_of (on_timer new now st) <> MDead /\ mode_of (on_interrupt now st) <> MDead.
Proof.
  intros old new st now Hf Hk Hw. pose proof (setx_keeps_wf old new st Hf Hk Hw) as Hw'.
  split; [exact Hw'|]. split; [apply C07_stage_total_timer|apply C07_stage_total_interrupt with new]; exact Hw'.
Qed.
Print Assumptions C07_attribute_update_never_crashes_a_stage.

Theorem C07_bandwidth_cuts_with_the_tested_rate : bw_cut_uses_tested_rate = true.
Proof. reflexivity. Qed.
Print Assumptions C07_bandwidth_cuts_with_the_tested_rate.

(** finding F13, pinned to the arithmetic of the tree before the repair (the cut re-read t.Rate):
    a 250-byte chunk tested against rate 1, the rate raised to 1000 while the 100 ms timer runs - the
    cut p.Data[:100000] leaves the chunk and the stage panics; with the tested rate it does not *)
Theorem C07_rate_update_race_refuted_pinned :
  let p := mkChunk (repeat 7 250) 0 in
  wf (TBandwidth 1) (BwInst p 1 0 100000000) /\
  same_kind (TBandwidth 1) (TBandwidth 1000) = true /\
  mode_of (on_timer_gen false (TBandwidth 1000) 100000000 (BwInst p 1 0 100000000)) = MDead /\
  mode_of (on_timer_gen true (TBandwidth 1000) 100000000 (BwInst p 1 0 100000000)) <> MDead.
Proof.
  split; [|split; [reflexivity|split; [vm_compute; reflexivity|vm_compute; discriminate]]].
  split; [vm_compute; reflexivity|]. reflexivity.
Qed.
Print Assumptions C07_rate_update_race_refuted_pinned.
