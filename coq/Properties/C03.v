(** C03 — a disabled or deleted proxy is really down; enabling brings it back (partial: the model
    states which close calls have happened before stop() returns and that nothing is registered
    afterwards; that the kernel then refuses connections and the peers see the end is observed on
    real sockets). [pstep] is the lifecycle of one proxy incarnation over all schedules of clients
    connecting, upstream dials succeeding or failing, links ending at any time, and the stop
    handshake between stop(), freeBlocker and the accept loop. *)
From Coq Require Import String.
From TP Require Import Model.Prelude Extracted Model.Proxy Proofs.ProxyProofs Model.Json Model.Api.

(** the facts about proxy.go / link.go the theorem rests on, extracted from the source *)
Theorem C03_code_facts :
  free_blocker_waits_for_accept_loop = true /\ conn_key_is_dest = true /\
  registers_before_links = true /\ stop_waits_then_closes = true /\ writer_deregisters_its_name = true.
Proof. repeat split. Qed.
Print Assumptions C03_code_facts.

(** once stop() has returned: the listener is closed, the accept loop has ended, and every socket
    of every connection ever accepted - client side and upstream side - is closed *)
Theorem C03_stop_is_down : forall l s,
  prun px_init l = Some s -> x_stop s = SReturned ->
  x_listening s = false /\ x_acc s = ADone /\ x_open s = [].
Proof. intros l s Hr. exact (Inv_down s (run_inv eq_refl eq_refl eq_refl l s Hr)). Qed.
Print Assumptions C03_stop_is_down.

(** and it stays that way whatever happens next: no registration, no new socket *)
Theorem C03_nothing_after_stop : forall l s a s',
  prun px_init l = Some s -> x_stop s = SReturned -> pstep s a = Some s' ->
  x_open s' = [] /\ x_acc s' = ADone /\ x_listening s' = false.
Proof.
  intros l s a s' Hr Hs Ha.
  destruct (stays_down eq_refl eq_refl eq_refl l s [a] s' Hr Hs) as (H1 & H2 & H3); [simpl; now rewrite Ha|auto].
Qed.
Print Assumptions C03_nothing_after_stop.

(** at the API level: disable, delete and a re-addressing update end with the old incarnation
    stopped (enabled = false in the intermediate state) before the response *)
Theorem C03_disable_stops : forall e s name p,
  find_proxy s name = Some p -> lookup_env e (p_listen p) <> None ->
  p_listen p = match lookup_env e (p_listen p) with Some a => a_resolved a | None => p_listen p end ->
  exists p', fst (h_proxy_update e s name (BJson (JObj [("enabled"%string, JBool false)]))) = mkResp status_ok (PProxy p') /\
             p_enabled p' = false.
Proof.
  intros e s name p Hf Hl Hres. unfold h_proxy_update. rewrite Hf.
  change (dec_proxy _ _) with (mkPIn "" (p_listen p) (p_upstream p) (Some false), false).
  cbn [pi_listen pi_upstream pi_enabled]. destruct (lookup_env e (p_listen p)) as [a|]; [|easy].
  rewrite <- Hres, !String.eqb_refl. cbn. destruct (p_enabled p) eqn:Hen; cbn; eauto.
Qed.
Print Assumptions C03_disable_stops.

Theorem C03_delete_removes : forall s name p,
  find_proxy s name = Some p ->
  h_proxy_delete s name = (mkResp status_no_content PNone, remove_proxy s name).
Proof. intros s name p H. unfold h_proxy_delete. now rewrite H. Qed.
Print Assumptions C03_delete_removes.

(** a populate entry that replaces a proxy stops the old incarnation - directly in the branch that found
    it, before the replacement is started or filed, whatever the replacement's address and enabled flag
    (regenerated from ProxyCollection.AddOrReplace); what stop() then guarantees is the lifecycle theorem *)
Theorem C03_replace_stops_the_old_proxy : replace_stops_the_old_proxy = true.
Proof. reflexivity. Qed.
Print Assumptions C03_replace_stops_the_old_proxy.
