(** C09 — bandwidth toxic never lets more than rate KB/s through. Statements about
    toxics/bandwidth.go as modelled; the sleep increment, the split test, the instalment size and
    length and the units are extracted from the source. *)
From TP Require Import Model.Prelude Extracted Model.Toxics Proofs.GoArith Proofs.StageContract Proofs.StageRun Proofs.C09Proofs.

(** the accumulated sleep is exactly credit + floor(len * 10^6 / rate) ns (Go's truncating
    Duration division), for rates and lengths that do not overflow *)
Theorem C09_sleep_exact : forall acc len rate,
  rate_ok rate -> 0 <= len <= 4294967296 -> - two63 / 2 <= acc <= 0 ->
  bw_sleep_add acc len rate = acc + dur len rate.
Proof. exact bw_sleep_add_exact. Qed.
Print Assumptions C09_sleep_exact.

(** a chunk of at most 100*rate bytes is forwarded whole, unchanged, at
    pick-up + max(0, credit + floor(len*10^6/rate)): never earlier than its budget allows, and no
    later when the receiver is ready; oversleep becomes (non-positive) credit for the next chunk *)
Theorem C09_small_chunk : forall rate ps at_ acc (c : chunk) fuel,
  (1 < fuel)%nat -> rate_ok rate -> - two63 / 2 <= acc <= 0 ->
  zlen (cdata c) <= rate * 100 -> zlen (cdata c) <= 4294967296 ->
  let sl := acc + dur (zlen (cdata c)) rate in
  let s1 := fst (on_input (TBandwidth rate) ps at_ [] (Some c) (Idle acc None)) in
  let r := stage_emit (TBandwidth rate) ps at_ fuel None s1 in
  fst (fst r) = [(at_ + Z.max 0 sl, cdata c)] /\ final_st r = Idle (Z.min 0 sl) None.
Proof.
  intros rate ps at_ acc c fuel Hf Hr Ha Hs Hl sl s1 r. subst s1 r.
  now rewrite (bw_small_chunk_eq _ _ _ _ _ _ Hf Hr Ha Hs Hl).
Qed.
Print Assumptions C09_small_chunk.

(** data above 100 ms worth of budget is released in instalments of exactly 100*rate bytes every
    100 ms: after 100 ms the first 100*rate bytes are offered, and the stage goes on with the rest
    and 100 ms less to sleep *)
Theorem C09_instalment : forall rate now (p : chunk) sl,
  rate_ok rate -> rate * 100 < zlen (cdata p) ->
  bw_loop rate p sl now = BwInst p rate sl (now + bw_instalment_ns) /\
  bw_instalment_ns = 100000000 /\
  on_timer (TBandwidth rate) (now + bw_instalment_ns) (BwInst p rate sl (now + bw_instalment_ns)) =
    Send (mkChunk (slice_to (cdata p) (rate * 100)) (cts p))
         (KBwLoop (mkChunk (slice_from (cdata p) (rate * 100)) (cts p)) (sl - bw_instalment_ns)) /\
  zlen (slice_to (cdata p) (rate * 100)) = rate * 100.
Proof.
  intros rate now p sl Hr Hbig. unfold bw_loop. rewrite (bw_split_test_exact _ _ Hr). destruct Hr as [Hr0 Hr1].
  replace (rate * 100 <? zlen (cdata p)) with true by lia.
  split; [reflexivity|]. split; [reflexivity|]. split; [|apply zlen_slice_to; lia].
  unfold on_timer. cbn [on_timer_gen].
  replace (if bw_cut_uses_tested_rate then rate else rate) with rate by now destruct bw_cut_uses_tested_rate.
  unfold bw_instalment_bytes, slice_ok. rewrite wrap64_id by lia.
  now replace ((0 <=? 0) && (0 <=? rate * 100) && (rate * 100 <=? zlen (cdata p))) with true by lia.
Qed.
Print Assumptions C09_instalment.

(** the rate bound, arithmetic core (the composition with the stage run, for chunks that are not split into
    instalments, is C09_rate_bound below): under the credit scheme the k-th emission is no earlier than
    first pick-up + D_1 + ... + D_k *)
Theorem C09_rate_bound_partial : forall steps a p, a <= 0 -> sched_ok a p steps -> steps <> [] ->
  p + a + sumD steps <= last_emit p steps.
Proof. intros steps a p Ha Hs _. now apply sched_ok_bound. Qed.
Print Assumptions C09_rate_bound_partial.

Theorem C09_truncation_term : forall len rate, 0 < rate -> 0 <= len ->
  len * 1000000 - rate < dur len rate * rate <= len * 1000000.
Proof. intros len rate Hr _. now apply dur_bound. Qed.
Print Assumptions C09_truncation_term.

Theorem C09_order_content : forall rate, preserving (TBandwidth rate).
Proof. intros; exact I. Qed.
Print Assumptions C09_order_content.

(** ---- sequences of chunks (each at most 100 ms worth of budget, i.e. not split into instalments)
    through the stage with a ready receiver: the stage's run is the closed form [bw_sched] - chunk k,
    picked up at p_k with credit a_k <= 0, leaves whole at p_k + max(0, a_k + floor(L_k*10^6/rate))
    and the oversleep is credited on - for every rate, every sequence, every pacing *)
From TP Require Import Proofs.StageFeed Proofs.FeedProofs.

Theorem C09_sequence_closed_form : forall rate, rate_ok rate -> forall fuel, (1 < fuel)%nat -> forall ps arr acc,
  - two63 / 2 <= acc <= 0 -> Forall (fun pc => small_for rate (snd pc)) arr ->
  feed (TBandwidth rate) fuel ps (Idle acc None) (arrivals arr) =
  (fst (bw_sched rate acc arr), Idle (snd (bw_sched rate acc arr)) None, ps).
Proof.
  intros rate Hr fuel Hf ps.
  induction arr as [|[p c] r IH]; intros acc Ha Hs; [reflexivity|].
  inversion Hs as [|? ? [H1 H2] Hs']; subst. cbn [snd] in H1, H2.
  cbn [arrivals map feed feed_one bw_sched fst snd].
  rewrite (bw_small_chunk_eq _ _ _ _ _ _ Hf Hr Ha H1 H2), IH; [now destruct (bw_sched rate _ r)| |exact Hs'].
  pose proof (dur_range (zlen (cdata c)) rate (proj1 Hr) (zlen_nonneg _)). rewrite credit_bound in *. lia.
Qed.
Print Assumptions C09_sequence_closed_form.

(** the rate bound for such sequences: whenever each chunk is picked up no earlier than the previous
    one left (the stage is sequential), by the time chunk k leaves at most rate bytes per millisecond
    have been forwarded since the first pick-up, plus one nanosecond's worth per chunk (Go's
    truncating division): 10^6 * bytes(1..k) < rate * (e_k - p_1 - credit) + rate * k *)
Theorem C09_rate_bound : forall rate, 0 < rate -> forall arr acc base,
  acc <= 0 -> picked_after base arr (fst (bw_sched rate acc arr)) ->
  forall k e d, nth_error (fst (bw_sched rate acc arr)) k = Some (e, d) ->
  1000000 * sumlen (firstn (S k) arr) < rate * (e - base - acc) + rate * Z.of_nat (S k).
Proof. intros rate Hr arr acc base _. now apply bw_rate_bound. Qed.
Print Assumptions C09_rate_bound.
