(** C14: the toxicity decision. A draw is k / 2^53 rounded to float32 and never 1 (math/rand's
    Float32 rejects 1); a toxicity is a float32 in [0,1]. Both are modelled as integers over a
    common denominator: draw = k/D with 0 <= k < D, toxicity = m/D with 0 <= m <= D. The
    comparison operator is the one extracted from ToxicStub.Run. *)
From TP Require Import Model.Prelude Extracted.

Definition applies (cmp : toxicity_cmp_t) (k m : Z) : bool :=
  match cmp with TLt => k <? m | TLe => k <=? m end.

Lemma cmp_is_lt : toxicity_cmp = TLt.
Proof. reflexivity. Qed.

(** the acceptance set is an initial segment of the draws and has exactly m of the D equally
    likely values: under a uniform source the probability is m/D = the toxicity *)
Fixpoint count_applies (cmp : toxicity_cmp_t) (m : Z) (n : nat) : Z :=
  match n with
  | O => 0
  | S n' => count_applies cmp m n' + (if applies cmp (Z.of_nat n') m then 1 else 0)
  end.

Lemma count_applies_lt m : 0 <= m -> forall n, count_applies TLt m n = Z.min m (Z.of_nat n).
Proof.
  intros Hm. induction n as [|n IH]; [cbn; lia|]. cbn [count_applies applies]. rewrite IH.
  destruct (Z.of_nat n <? m) eqn:E; lia.
Qed.
