(** C18: what the translator extracted from stream/io_chan.go meets the hypotheses of the stream theorems;
    a writer that copies never looks at its caller's buffer again. *)
From TP Require Import Model.Prelude Model.Stream Proofs.StreamProofs Extracted.

(** Robust to harmless rewrites of the test: any boolean combination of comparisons over
    len(out), n, len(c.buffer) that satisfies [early_ok] goes through by [lia]. *)
Lemma extracted_early_ok : early_ok read_early.
Proof. unfold early_ok, read_early. intros o n bl Hn Hbl Hlt. split; lia. Qed.

Lemma extracted_writer_copies : writer_copies = true.
Proof. reflexivity. Qed.

(** The writer never retains the caller's buffer: scribbling on it (AMutate) at any point of any
    script does not change anything a read returns. Stated by erasing the AMutate actions. *)
Fixpoint erase_mutate (l : list action) : list action :=
  match l with
  | [] => []
  | AMutate _ :: l' => erase_mutate l'
  | a :: l' => a :: erase_mutate l'
  end.

Definition with_caller (p : pipe) (c : bytes) : pipe :=
  {| written := written p; queue := queue p; closed := closed p; caller := c; carry := carry p;
     returned := returned p; eof := eof p; lastn := lastn p |}.

Lemma step_with_caller early (p : pipe) (c : bytes) (a : action) :
  Forall is_copy (queue p) ->
  step early true (with_caller p c) a =
  option_map (fun p' => with_caller p' (match a with AWrite d | AMutate d => d | _ => c end)) (step early true p a).
Proof.
  intros Hq. assert (Hav : avail_of (with_caller p c) = avail_of p).
  { unfold avail_of. cbn. destruct Hq as [|q qs Hq _]; [reflexivity|]. now rewrite (resolve_copy c (caller p) q Hq). }
  destruct a as [d|d| |o intr]; cbn [step]; rewrite ?Hav; cbn.
  - now destruct (closed p).
  - reflexivity.
  - now destruct (closed p).
  - now destruct (read early (carry p) o (avail_of p) intr).
Qed.

(** a run and the same run without the overwrites end in the same state, up to the caller's buffer: from
    every state that holds only copies, whatever the test [early] *)
Theorem no_alias early (l : list action) : forall p p' c,
  Forall is_copy (queue p) -> run early true p l = Some p' ->
  exists c', run early true (with_caller p c) (erase_mutate l) = Some (with_caller p' c').
Proof.
  induction l as [|a l IH]; intros p p' c Hq Hr; cbn [run] in Hr; [injection Hr as <-; now exists c|].
  destruct (step early true p a) as [p1|] eqn:Hs; [|discriminate]. pose proof (step_copies _ _ _ _ Hs Hq) as Hq1.
  destruct a as [d|d| |o intr]; cbn [erase_mutate run].
  2:{ (* an overwrite changes the caller's buffer alone *) injection Hs as <-. exact (IH _ p' c Hq1 Hr). }
  all: rewrite step_with_caller, Hs by exact Hq; now apply IH.
Qed.

(** Non-vacuity: a concrete script with partial reads, a refill and EOF runs and satisfies the
    hypotheses of the theorems above. *)
Example c18_nonvacuous :
  exists p, run read_early writer_copies pipe_init
              [AWrite [1;2;3;4;5;6;7;8]; AWrite [9;10;11]; AMutate [0;0;0]; AClose;
               ARead 3 false; ARead 3 false; ARead 3 false; ARead 3 false; ARead 3 false] = Some p
            /\ returned p = [1;2;3;4;5;6;7;8;9;10;11] /\ eof p = true.
Proof. eexists. vm_compute. repeat split. Qed.
