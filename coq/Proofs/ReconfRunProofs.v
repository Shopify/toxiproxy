(** The executable reconfiguration runs (Model/ReconfRun.v, and Model/MultiRun.v for several
    connections) are interleavings of the all-schedules system: every move of [rrun_quiet] - and of
    the guided search [rsearch], and of each connection under [mrun_quiet] - is one data-path
    action, one control action of Model/Reconf.v, or a change of the operation's phase that leaves
    the link untouched. Hence every theorem about [mixed_run] (ReconfInv, WallProofs) speaks about
    the runs that are compared with the real code. Also here: when an operation's interrupt gives up
    on a stage ([interrupt_gives_up_only_on_closed]). *)
From TP Require Import Model.Prelude Model.Timed Model.Reconf Model.ReconfRun Model.MultiRun Proofs.LinkSteps.

(** what a process's move [res] may be, seen from the link [l] it starts from: no move, one control
    action of Model/Reconf.v, or a change of phase that leaves the link alone *)
Definition sound (l : link) (res : option (option mact * rrun)) : Prop :=
  match res with
  | None => True
  | Some (Some (MCtl a), r') => ctl_step l a = Some (r_l r')
  | Some (Some (MData _), _) => False
  | Some (None, r') => r_l r' = l
  end.

(** the forms a move of a process takes: none, a change of phase, a control action whose result is the link of
    the run returned. [ctl_move] and [ctl_alt] are trees of tests with these at the leaves, so their
    soundness proofs walk the tests and leave the leaves to [auto with sound] *)
Lemma none_sound l : sound l None.
Proof. exact I. Qed.

Lemma ctl_sound l a (k : link -> rrun) :
  (forall l', r_l (k l') = l') -> sound l (match ctl_step l a with Some l' => Some (Some (MCtl a), k l') | None => None end).
Proof. intros Hk. destruct (ctl_step l a) eqn:E; cbn; [now rewrite Hk|exact I]. Qed.

Lemma do_ctl_sound r a ph : sound (r_l r) (do_ctl r a ph).
Proof. now apply ctl_sound. Qed.

Lemma just_ph_sound r ph : sound (r_l r) (just_ph r ph).
Proof. reflexivity. Qed.

Lemma stays_sound l g ph ops conf : sound l (Some (None, mkRun l g ph ops conf)).
Proof. reflexivity. Qed.

Lemma or_else_sound l a b : sound l a -> sound l b -> sound l (or_else a b).
Proof. destruct a; auto. Qed.

Create HintDb sound.
#[local] Hint Resolve none_sound do_ctl_sound just_ph_sound stays_sound or_else_sound : sound.
#[local] Hint Extern 1 (sound _ (match ctl_step _ _ with _ => _ end)) => apply ctl_sound; reflexivity : sound.

Lemma flush_move_sound r p dl k : sound (r_l r) (flush_move r p dl k).
Proof.
  unfold flush_move. destruct (nth_error (l_stubs (r_l r)) p) as [s|]; auto with sound.
  destruct dl as [d|].
  - destruct (ctl_step (r_l r) (CForward p)) eqn:E; [exact E|]. destruct (d <=? l_now (r_l r)); auto with sound.
  - destruct (s_inq s); auto with sound.
Qed.

Lemma stop_move_sound r q st k : sound (r_l r) (stop_move r q st k).
Proof.
  unfold stop_move. destruct st as [| |b]; auto with sound; destruct (interrupt_try (r_l r) q _); auto with sound.
Qed.
#[local] Hint Resolve flush_move_sound stop_move_sound : sound.

Theorem ctl_move_sound r : sound (r_l r) (ctl_move r).
Proof.
  unfold ctl_move. destruct (r_ph r) as [|tx eff effp p w|p effp|p tx eff w|p q effp w|p q effp st stopped dl|p q st stopped|p q effp dl|q effp|].
  - (* PIdle: start the next operation *)
    destruct (r_ops r) as [|[at_ o] rest]; auto with sound.
    destruct (at_ <=? l_now (r_l r)); auto with sound.
    set (r0 := mkRun (r_l r) (r_gone r) PIdle rest (r_conf r)).
    change (r_l r) with (r_l r0).
    destruct (match l_sink_closed (r_l r0) with Some _ => true | None => false end); auto with sound.
    destruct o as [tx eff effp|k tx eff|k effp].
    + destruct (last_live (r_gone r) 0 None); auto with sound.
    + destruct (live_pos (r_gone r) k 0); auto with sound.
    + destruct (live_pos (r_gone r) k 0); auto with sound.
      destruct (live_pos (r_gone r) (pred k) 0); auto with sound.
      destruct (Nat.ltb _ _); auto with sound.
  - (* PAdd *) destruct (interrupt_try (r_l r) p w); auto with sound.
  - (* PAdd2 *) destruct (nth_error (l_stubs (r_l r)) p); auto with sound.
  - (* PUpd *) destruct (interrupt_try (r_l r) p w); auto with sound.
  - (* PRem *) destruct (interrupt_try (r_l r) p w); auto with sound.
    destruct (nth_error (l_stubs (r_l r)) p) as [s|]; auto with sound.
    destruct (is_timeout (s_tx s)); auto with sound.
  - (* PFlush *) destruct (nth_error (l_stubs (r_l r)) p) as [s|]; auto with sound.
    apply or_else_sound; auto with sound.
    destruct dl as [d|]; auto with sound.
    pose proof (flush_move_sound r p None (fun d => PFlush p q effp st stopped d)) as Hf.
    destruct (flush_move r p None _); [exact Hf|].
    destruct (inq_empty s && s_in_closed s); auto with sound.
    destruct st as [| |b]; auto with sound. destruct stopped; auto with sound. destruct b; auto with sound.
  - (* PFlushEnd *) destruct stopped; auto with sound. destruct st; auto with sound.
  - (* PDrain *) destruct (nth_error (l_stubs (r_l r)) p) as [s|]; auto with sound.
    destruct dl as [d|]; auto with sound.
    destruct (s_inq s); auto with sound.
    destruct (Nat.eqb (S q) p); auto with sound.
  - (* PRem2 *) destruct (nth_error (l_stubs (r_l r)) q); auto with sound.
  - (* PStuck *) auto with sound.
Qed.

(** reachability in the all-schedules system, which is what the executable runs are shown to stay within *)
Definition reach (l l' : link) : Prop := exists sigma, mixed_run l sigma = Some l'.

Lemma reach_refl l : reach l l.
Proof. now exists []. Qed.

Lemma reach_step l a l1 l' : mixed_step l a = Some l1 -> reach l1 l' -> reach l l'.
Proof. intros Ha [sigma Hs]. exists (a :: sigma). cbn. now rewrite Ha. Qed.

Lemma reach_tick l t l' : reach (set_now l (Z.max t (l_now l))) l' -> reach l l'.
Proof.
  apply (reach_step l (MData (ATick (Z.max t (l_now l))))). cbn. now replace (l_now l <=? Z.max t (l_now l)) with true by lia.
Qed.

Lemma reach_data l l1 l' : step_now l = Some l1 -> reach l1 l' -> reach l l'.
Proof. intros Hs. destruct (step_now_sched _ _ Hs) as [a Ha]. now apply (reach_step l (MData a)). Qed.

Lemma reach_sound l y r1 l' : sound l (Some (y, r1)) -> reach (r_l r1) l' -> reach l l'.
Proof. destruct y as [[d|c]|]; cbn; [contradiction|apply (reach_step l (MCtl c))|now intros <-]. Qed.

Lemma bump1_sound l x : sound l x -> sound l (bump1 x).
Proof. destruct x as [[[[d|c]|] r']|]; auto. Qed.

Lemma ctl_alt_sound r : sound (r_l r) (ctl_alt r).
Proof.
  unfold ctl_alt. destruct (r_ph r) as [| | | | |p q effp st [|] [d|]| | | |]; auto with sound.
  destruct (nth_error (l_stubs (r_l r)) p) as [s|]; auto with sound. destruct (s_in_closed s); auto with sound.
  destruct st as [| |[|]]; auto using bump1_sound with sound.
Qed.

(** one move of the executable run: at most one action of the all-schedules system *)
Theorem reach_rstep pol r x r' l' : rstep pol r = Some (x, r') -> reach (r_l r') l' -> reach (r_l r) l'.
Proof.
  unfold rstep. destruct (rstep0 pol r) as [[x0 r0]|] eqn:E0; [|discriminate]. intros [= _ <-].
  replace (r_l (match ctl_alt r with Some _ => _ | None => r0 end)) with (r_l r0) by now destruct (ctl_alt r).
  revert E0. unfold rstep0. pose proof (ctl_move_sound r) as Hc.
  (* whichever of the two is taken: a move of the data path, or the process's own *)
  destruct (step_now (r_l r)) as [l1|] eqn:Hs; destruct (ctl_move r) as [[y r1]|]; try discriminate;
    destruct pol; intros [= _ <-];
    first [exact (reach_data _ _ _ Hs)|exact (reach_sound _ _ _ _ Hc)].
Qed.

(** the guided search over the scheduler's choices only ever follows moves of the system too *)
Theorem rsearch_mixed fuel : forall horizon obs oc r r',
  rsearch fuel horizon obs oc r = Some r' -> exists sigma, mixed_run (r_l r) sigma = Some (r_l r').
Proof.
  induction fuel as [|f IH]; intros horizon obs oc r r' H; [discriminate|]. cbn [rsearch] in H.
  assert (Hgo : forall r1, rsearch_go (rsearch f horizon obs oc) obs oc r r1 = Some r' -> reach (r_l r1) (r_l r')).
  { intros r1 H1. unfold rsearch_go in H1. destruct (Nat.eqb _ _).
    - destruct (close_ok oc (r_l r1)); [eapply IH; exact H1|discriminate].
    - destruct (newest_ok obs (r_l r1)); [eapply IH; exact H1|discriminate]. }
  pose proof (ctl_move_sound r) as Hc. pose proof (ctl_alt_sound r) as Ha.
  match type of H with match ?e with _ => _ end = _ => destruct e eqn:Halt end.
  { injection H as <-. destruct (ctl_alt r) as [[y ra]|]; [|discriminate]. exact (reach_sound _ _ _ _ Ha (Hgo _ Halt)). }
  clear Halt Ha. destruct (step_now (r_l r)) as [l1|] eqn:Hs; destruct (ctl_move r) as [[y r1]|].
  - match type of H with match ?e with _ => _ end = _ => destruct e eqn:H1 end.
    + injection H as <-. exact (reach_data _ _ _ Hs (Hgo _ H1)).
    + exact (reach_sound _ _ _ _ Hc (Hgo _ H)).
  - exact (reach_data _ _ _ Hs (Hgo _ H)).
  - exact (reach_sound _ _ _ _ Hc (Hgo _ H)).
  - destruct (rnext_time r) as [t|]; [destruct (t <=? horizon); [exact (reach_tick _ t _ (Hgo _ H))|]|];
      (destruct (final_ok obs oc r); [injection H as <-; apply reach_refl|discriminate]).
Qed.

(** an operation gives up on a stage only when its stub is closed (C10 / C14: a toxic that is
    added or updated reaches every live connection, however long its stage is busy) *)
Theorem interrupt_gives_up_only_on_closed l p w :
  interrupt_try l p w = IFalse -> exists s, nth_error (l_stubs l) p = Some s /\ s_closed s = true /\ w = false.
Proof.
  unfold interrupt_try. destruct (nth_error (l_stubs l) p) as [s|]; [|discriminate].
  destruct w; [destruct (is_exited s); discriminate|].
  destruct (s_closed s) eqn:E; [intros _; exists s; auto|].
  destruct (listens_interrupt s); discriminate.
Qed.

(** several connections under one history (Model/MultiRun.v): whatever the other connections of the
    proxy do, what happens on one connection is an interleaving of the all-schedules system of that
    connection alone - the links share nothing but the schedule of operations. Hence every theorem
    about [mixed_run] holds per connection in the multi-connection runs that are compared with the
    real code: "independently of all other connections" *)
Lemma links_step_moved ls : forall ls1 k r,
  links_step ls = Some ls1 -> nth_error ls k = Some r ->
  exists r1, nth_error ls1 k = Some r1 /\ forall l', reach (r_l r1) l' -> reach (r_l r) l'.
Proof.
  induction ls as [|x ls IH]; intros ls1 k r H Hn; simpl in H; [discriminate|].
  destruct (rstep false x) as [[y x1]|] eqn:Hs.
  - injection H as <-. destruct k as [|k]; cbn; [|eauto]. injection Hn as <-. eauto using reach_rstep.
  - destruct (links_step ls) as [rest|] eqn:Hr; [|discriminate]. injection H as <-.
    destruct k as [|k]; cbn; eauto.
Qed.

Lemma mstep_moved m m1 k r :
  mstep m = Some m1 -> nth_error (m_links m) k = Some r ->
  exists r1, nth_error (m_links m1) k = Some r1 /\ forall l', reach (r_l r1) l' -> reach (r_l r) l'.
Proof.
  unfold mstep. intros H Hn.
  destruct (links_step (m_links m)) as [ls|] eqn:Hl; [injection H as <-; eapply links_step_moved; eassumption|].
  destruct (all_idle (m_links m)); [|discriminate].
  match type of H with (if ?b then _ else _) = _ => destruct b end.
  - destruct (m_starts m) as [|[s [src sd]] rest]; [discriminate|]. injection H as <-. cbn [m_links].
    exists r. split; [|auto]. rewrite nth_error_app1; [exact Hn|]. apply nth_error_Some. congruence.
  - match type of H with match ?e with _ => _ end = _ => destruct e end; [|discriminate].
    destruct (m_ops m) as [|[at_ o] rest]; [discriminate|]. injection H as <-. cbn [m_links].
    rewrite nth_error_map, Hn. cbn. eauto.
Qed.

Theorem mrun_link_is_an_interleaving fuel : forall horizon m m' k r,
  mrun_quiet fuel horizon m = Some m' -> nth_error (m_links m) k = Some r ->
  exists r' sigma, nth_error (m_links m') k = Some r' /\ mixed_run (r_l r) sigma = Some (r_l r').
Proof.
  enough (Hreach : forall horizon m m' k r, mrun_quiet fuel horizon m = Some m' -> nth_error (m_links m) k = Some r ->
            exists r', nth_error (m_links m') k = Some r' /\ reach (r_l r) (r_l r')).
  { intros horizon m m' k r H Hn. destruct (Hreach _ _ _ _ _ H Hn) as (r' & Hn' & sigma & Hs). eauto. }
  induction fuel as [|f IH]; intros horizon m m' k r H Hn; simpl in H; [discriminate|].
  destruct (mstep m) as [m1|] eqn:Hs.
  - destruct (mstep_moved _ _ _ _ Hs Hn) as (r1 & Hn1 & Hm). destruct (IH _ _ _ _ _ H Hn1) as (r' & Hn' & Hr). eauto.
  - destruct (mnext_time m) as [t|]; [destruct (t <=? horizon)|]; try (injection H as <-; eauto using reach_refl).
    set (t' := Z.max t (m_now m)).
    assert (Hn1 : nth_error (m_links (mset_now m t')) k = Some (with_l r (set_now (r_l r) (Z.max t' (l_now (r_l r))))))
      by (unfold mset_now; cbn [m_links]; now rewrite nth_error_map, Hn).
    destruct (IH _ _ _ _ _ H Hn1) as (r' & Hn' & Hr). exists r'. split; [exact Hn'|exact (reach_tick _ _ _ Hr)].
Qed.
