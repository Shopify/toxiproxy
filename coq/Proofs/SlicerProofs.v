(** The slicer's offset computation (toxics/slicer.go: chunk), as extracted: for every attribute
    value it terminates and the offsets partition [start, end) into consecutive non-empty pieces;
    for 0 <= size_variation < average_size the pieces are at most average_size + size_variation
    bytes long. *)
From TP Require Import Model.Prelude Extracted Model.Toxics Proofs.GoArith.

(** [covers rest o tot]: the offset list is a sequence of pairs (lo, hi), the first starting at
    [o], each starting where the previous one ended, the last ending at [tot]. *)
Fixpoint covers (rest : list Z) (o tot : Z) : Prop :=
  match rest with
  | [] => o = tot
  | lo :: r =>
    match r with
    | hi :: rest' => lo = o /\ lo <= hi /\ covers rest' hi tot
    | [] => False
    end
  end.

(** every piece is non-empty and at most [b] long *)
Fixpoint pieces_within (b : Z) (rest : list Z) : Prop :=
  match rest with
  | [] => True
  | lo :: r =>
    match r with
    | hi :: rest' => 0 < hi - lo <= b /\ pieces_within b rest'
    | [] => False
    end
  end.

Lemma list_pair_ind (P : list Z -> Prop) :
  P [] -> (forall x, P [x]) -> (forall x y l, P l -> P (x :: y :: l)) -> forall l, P l.
Proof.
  intros H0 H1 H2.
  fix IH 1. intros [|x [|y l]]; [exact H0|apply H1|apply H2, IH].
Qed.

Lemma covers_app l : forall r o m t, covers l o m -> covers r m t -> covers (l ++ r) o t.
Proof.
  induction l as [| x | x y l IH] using list_pair_ind; cbn; intros r o m t Hl Hr.
  - now subst.
  - contradiction.
  - destruct Hl as (-> & Hle & Hl). eauto.
Qed.

Lemma pieces_within_app b l : forall r, pieces_within b l -> pieces_within b r -> pieces_within b (l ++ r).
Proof.
  induction l as [| x | x y l IH] using list_pair_ind; cbn; intros r Hl Hr.
  - exact Hr.
  - contradiction.
  - destruct Hl as (Hb & Hl). auto.
Qed.

Lemma covers_le rest : forall o tot, covers rest o tot -> o <= tot.
Proof.
  induction rest as [| x | x y l IH] using list_pair_ind; cbn; intros o tot H.
  - lia.
  - contradiction.
  - destruct H as (-> & Hle & H). specialize (IH _ _ H). lia.
Qed.

(** the split point always lies strictly inside a chunk of at least two bytes *)
Lemma clamp_inside start end_ m : start + 2 <= end_ -> start < slicer_clamp start end_ m < end_.
Proof.
  intros H. unfold slicer_clamp.
  destruct (m <=? start) eqn:E1; [lia|]. destruct (end_ <=? m) eqn:E2; lia.
Qed.

(** one level of the recursion on a chunk that is not a base case: rand.Intn, where it is called,
    gets a positive argument, and whatever it returns the chunk is cut strictly inside *)
Lemma slicer_chunk_split f avg var start end_ draws :
  slicer_base start end_ avg var = false ->
  exists m d1, start < m < end_ /\
    slicer_chunk (S f) avg var start end_ draws =
    match slicer_chunk f avg var start m d1 with
    | CROk l d2 => match slicer_chunk f avg var m end_ d2 with CROk r d3 => CROk (l ++ r) d3 | e => e end
    | e => e
    end.
Proof.
  intros Hbase. cbn [slicer_chunk]. rewrite Hbase.
  assert (Hin : forall m, start < slicer_clamp start end_ m < end_)
    by (intros m; apply clamp_inside; unfold slicer_base in Hbase; lia).
  destruct (slicer_rand_guard var) eqn:Hg; [|eexists _, _; split; [apply Hin|reflexivity]].
  replace (slicer_rand_n var <=? 0) with false
    by (unfold slicer_rand_guard, slicer_rand_n in *; rewrite maxint_half in Hg; rewrite wrap64_id; lia).
  destruct draws; eexists _, _; (split; [apply Hin|reflexivity]).
Qed.

(** generic form: [b] bounds the length of every non-empty base-case interval inside [lo, hi) *)
Lemma slicer_chunk_gen lo hi b avg var
  (Hb : forall s e, lo <= s -> s < e -> e <= hi -> slicer_base s e avg var = true -> e - s <= b)
  (fuel : nat) : forall start end_ draws,
  lo <= start -> end_ <= hi ->
  start <= end_ -> (Z.to_nat (end_ - start) < fuel)%nat ->
  exists os ds, slicer_chunk fuel avg var start end_ draws = CROk os ds /\
                covers os start end_ /\
                (start < end_ -> pieces_within b os).
Proof.
  induction fuel as [|f IH]; intros start end_ draws Hlo Hhi Hle Hfuel; [lia|].
  destruct (slicer_base start end_ avg var) eqn:Hbase.
  - exists [start; end_], draws. cbn [slicer_chunk]. rewrite Hbase. split; [reflexivity|]. split; [cbn; lia|].
    intros Hlt. split; [|exact I]. split; [lia|]. now apply Hb.
  - destruct (slicer_chunk_split f avg var start end_ draws Hbase) as (m & d1 & Hm & ->).
    destruct (IH start m d1) as (l & d2 & -> & Cl & Pl); [lia..|].
    destruct (IH m end_ d2) as (r & d3 & -> & Cr & Pr); [lia..|].
    exists (l ++ r), d3. split; [reflexivity|]. split; [exact (covers_app _ _ _ _ _ Cl Cr)|].
    intros _. apply pieces_within_app; [apply Pl|apply Pr]; lia.
Qed.

(** For EVERY average_size and size_variation (any int64 values), every size and every sequence of
    draws: the recursion terminates within size+1 levels, never calls rand.Intn with a non-positive
    argument, and the offsets partition [start, end) into consecutive NON-EMPTY pieces. *)
Theorem slicer_chunk_total (fuel : nat) : forall avg var start end_ draws,
  start <= end_ -> (Z.to_nat (end_ - start) < fuel)%nat ->
  exists os ds, slicer_chunk fuel avg var start end_ draws = CROk os ds /\
                covers os start end_ /\
                (start < end_ -> pieces_within (end_ - start) os).
Proof.
  intros avg var start end_ draws Hle Hf.
  apply (slicer_chunk_gen start end_ (end_ - start) avg var); lia.
Qed.

(** inside the documented range 0 <= size_variation < average_size (an int) every piece is at most
    average + variation bytes *)
Theorem slicer_chunk_spec (fuel : nat) : forall avg var start end_ draws,
  0 <= var < avg -> avg < two63 -> 0 <= start -> end_ < two63 -> start <= end_ -> (Z.to_nat (end_ - start) < fuel)%nat ->
  exists os ds, slicer_chunk fuel avg var start end_ draws = CROk os ds /\
                covers os start end_ /\
                (start < end_ -> pieces_within (avg + var) os).
Proof.
  intros avg var start end_ draws Hv Ha Hs He Hle Hf.
  apply (slicer_chunk_gen start end_ (avg + var) avg var); [|lia..].
  intros s e H1 H2 H3 Hbase. unfold slicer_base in Hbase.
  rewrite wrap64_id in Hbase; lia.
Qed.

(** Regression witness for the repaired defect F5a: without the "fewer than two bytes" base case
    and the clamp, the default attributes 0/0 recurse for ever on a one-byte chunk. The pinned
    recursion is spelled out here (the current one is [slicer_chunk]). *)
Fixpoint slicer_chunk_pinned (fuel : nat) (avg var : Z) (start end_ : Z) : option (list Z) :=
  match fuel with
  | O => None
  | S f =>
    if (end_ - start) - avg <=? var then Some [start; end_]
    else
      let mid := start + godiv (end_ - start) 2 in
      match slicer_chunk_pinned f avg var start mid, slicer_chunk_pinned f avg var mid end_ with
      | Some l, Some r => Some (l ++ r)
      | _, _ => None
      end
  end.

Theorem slicer_chunk_diverges_pinned (fuel : nat) : slicer_chunk_pinned fuel 0 0 0 1 = None.
Proof.
  induction fuel as [|f IH]; [reflexivity|].
  cbn [slicer_chunk_pinned]. change (1 - 0 - 0 <=? 0) with false.
  change (0 + godiv (1 - 0) 2) with 0. rewrite IH. destruct (slicer_chunk_pinned f 0 0 0 0); reflexivity.
Qed.
