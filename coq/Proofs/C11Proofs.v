(** C11: limit_data delivers exactly the first N bytes, independent of chunking, and closes with
    the N-th byte; the counter [k] lives in the stub ([Some k] below), not in the stage. *)
From TP Require Import Model.Prelude Extracted Model.Toxics Proofs.GoArith
     Proofs.StageRun Proofs.StageFeed Proofs.TimingProofs.

(** the budget arithmetic does not wrap: N - counter fits int64 (finding F11 is exactly its failure) *)
Definition no_wrap (nb k : Z) : Prop := - two63 <= nb - k < two63.

Lemma limit_remaining_exact nb k : no_wrap nb k -> limit_remaining nb k = nb - k.
Proof. unfold limit_remaining. apply wrap64_id. Qed.

(** an idle stage with local budget [acc] forwards the first [take] = min(max(acc, 0), length) bytes of
    a chunk, in one piece if there are any, and adds their number to the stub's counter *)
Lemma limit_one nb k acc (c : chunk) at_ fuel :
  (0 < fuel)%nat ->
  let take := Z.min (Z.max acc 0) (zlen (cdata c)) in
  exists es, concat (map snd es) = slice_to (cdata c) take /\
    feed_one (TLimitData nb) fuel (Some k) (Idle acc None) at_ (Some c) =
    (es, limit_after nb (k + take), Some (k + take)).
Proof.
  intros Hf take. assert (Hrest : forall k', resting (limit_after nb k'))
    by (intros k'; unfold limit_after; now destruct (limit_close_test _)).
  pose proof (zlen_nonneg (cdata c)). cbn [feed_one on_input].
  (* what the stage cuts off is the whole chunk when the budget covers it *)
  replace (if Z.max acc 0 <? zlen (cdata c) then _ else c) with (mkChunk (slice_to (cdata c) take) (cts c)).
  2:{ unfold take. destruct (Z.ltb_spec (Z.max acc 0) (zlen (cdata c))).
      - now rewrite Z.min_l by lia.
      - rewrite slice_to_all by lia. now destruct c. }
  cbn [cdata]. rewrite zlen_slice_to by lia. destruct (0 <? take) eqn:Hpos.
  - destruct fuel as [|f]; [lia|]. exists [(at_, slice_to (cdata c) take)]. split; [apply app_nil_r|].
    apply (stage_emit_sent _ _ _ _ _ _ (mkChunk (slice_to (cdata c) take) (cts c))); [reflexivity|].
    cbn [on_sent fst snd cdata]. rewrite zlen_slice_to by lia. apply stage_emit_rest, Hrest.
  - exists []. replace take with 0 by lia. rewrite Z.add_0_r. split; [reflexivity|apply stage_emit_rest, Hrest].
Qed.

(** the local budget of an idle stage is N - counter, clipped at 0 when it is used *)
Fixpoint limit_spec (nb k : Z) (cs : list chunk) : bytes * Z * bool :=
  (* (emitted, counter, closed) *)
  match cs with
  | [] => ([], k, false)
  | c :: r =>
    let take := Z.min (Z.max (nb - k) 0) (zlen (cdata c)) in
    if nb - (k + take) <=? 0 then (firstn (Z.to_nat take) (cdata c), k + take, true)
    else let '(e, k', cl) := limit_spec nb (k + take) r in
         (firstn (Z.to_nat take) (cdata c) ++ e, k', cl)
  end.

Definition arrivals (ts : list Z) (cs : list chunk) : list (Z * option chunk) :=
  map (fun p => (fst p, Some (snd p))) (combine ts cs).

(** all chunks of a connection through the stage: it emits what [limit_spec] says, for every
    chunking and pacing; once closed nothing more is taken *)
Lemma limit_feed nb fuel (Hf : (0 < fuel)%nat) : forall (cs : list chunk) (ts : list Z) k,
  length ts = length cs ->
  (forall k', k <= k' -> k' <= k + zlen (concat (map cdata cs)) -> no_wrap nb k') ->
  let r := feed (TLimitData nb) fuel (Some k) (Idle (nb - k) None) (arrivals ts cs) in
  let '(e, k', cl) := limit_spec nb k cs in
  emitted r = e /\ snd r = Some k' /\
  final_st r = (if cl then Closing else Idle (nb - k') None).
Proof.
  induction cs as [|c cs IH]; intros [|t ts] k Hlen Hnw; try discriminate Hlen; [now split|].
  cbn [arrivals combine map feed fst snd limit_spec].
  destruct (limit_one nb k (nb - k) c t fuel Hf) as (es & He & ->).
  set (take := Z.min (Z.max (nb - k) 0) (zlen (cdata c))) in *. fold (slice_to (cdata c) take).
  cbn [map concat] in Hnw. rewrite zlen_app in Hnw.
  pose proof (zlen_nonneg (cdata c)). pose proof (zlen_nonneg (concat (map cdata cs))).
  unfold limit_after. rewrite limit_remaining_exact by (apply Hnw; lia). unfold limit_close_test.
  destruct (nb - (k + take) <=? 0).
  - rewrite feed_rest by discriminate. unfold emitted. cbn [fst snd]. now rewrite app_nil_r.
  - specialize (IH ts (k + take) ltac:(now injection Hlen) ltac:(intros; apply Hnw; lia)).
    fold (arrivals ts cs).
    destruct (limit_spec nb (k + take) cs) as [[e k'] cl], (feed _ _ _ _ (arrivals ts cs)) as [[es' s2] ps2].
    unfold emitted, final_st in *. cbn [fst snd] in *. destruct IH as (<- & IH2 & IH3).
    now rewrite <- He, map_app, concat_app.
Qed.

(** [limit_spec] is the exact prefix: the first max(N - k, 0) bytes of the stream, however it is cut *)
Lemma limit_spec_prefix nb : forall cs k,
  let '(e, k', cl) := limit_spec nb k cs in
  e = firstn (Z.to_nat (Z.max (nb - k) 0)) (concat (map cdata cs)) /\
  k' = k + zlen e /\
  (cl = true <-> (cs <> [] /\ nb - k <= zlen (concat (map cdata cs)))).
Proof.
  induction cs as [|c cs IH]; intros k; cbn [limit_spec map concat].
  - rewrite firstn_nil. split; [reflexivity|]. split; [cbn; lia|]. split; [discriminate|now intros []].
  - fold (slice_to (cdata c ++ concat (map cdata cs)) (Z.max (nb - k) 0)). rewrite slice_to_app, zlen_app.
    pose proof (zlen_nonneg (cdata c)). pose proof (zlen_nonneg (concat (map cdata cs))). unfold slice_to.
    (* the budget ends inside this chunk iff it is at most the chunk's length *)
    destruct (Z.leb_spec (nb - k) (zlen (cdata c))) as [Hin|Hout].
    + (* [take] is the budget, and nothing is left for the chunks behind *)
      rewrite Z.min_l by lia. replace (nb - (k + Z.max (nb - k) 0) <=? 0) with true by lia.
      replace (Z.to_nat (Z.max (nb - k) 0 - zlen (cdata c))) with O by lia. rewrite app_nil_r, zlen_firstn.
      split; [reflexivity|]. split; [lia|]. split; [split; [discriminate|lia]|reflexivity].
    + (* all of this chunk, and the rest of the budget for the others *)
      rewrite Z.min_r by lia. replace (nb - (k + zlen (cdata c)) <=? 0) with false by lia.
      specialize (IH (k + zlen (cdata c))). destruct (limit_spec nb (k + zlen (cdata c)) cs) as [[e k'] cl].
      destruct IH as (-> & -> & IH3). rewrite 2 (firstn_all2 (cdata c)) by (unfold zlen in *; lia).
      replace (Z.max (nb - (k + zlen (cdata c))) 0) with (Z.max (nb - k) 0 - zlen (cdata c)) by lia.
      split; [reflexivity|]. split; [rewrite (zlen_app (cdata c)); lia|]. rewrite IH3.
      split; (intros [Hne Hle]; split; [|lia]); [discriminate|]. intros ->. cbn in Hle. lia.
Qed.
