(** What the API does to the registry. The server is a list of proxies looked up by name, a proxy
    holds two lists of toxics looked up by name; every handler answers an error and leaves the server
    alone, or makes one of three edits: a proxy appended under a new name, a proxy replaced under its
    name, a name removed ([answer], [edit]). Populate and reset make several ([applied]). The registry
    invariant (C05) and the read-your-writes laws follow from one specification per handler, "a rejected
    request changes nothing" (C06) from what they come to for a routed request ([routed]). *)
From Coq Require Import String Relations.
From TP Require Import Model.Prelude Extracted Model.Json Model.Api.
Local Open Scope list_scope.

Definition names (s : server) : list string := map p_name s.
Definition uniq (s : server) : Prop := NoDup (names s).

Definition tnames (l : list toxic_rec) : list string := map t_name l.
Definition tuniq (p : proxy_rec) : Prop := NoDup (tnames (all_toxics p)).
Definition all_tuniq (s : server) : Prop := Forall tuniq s.

Lemma find_name s n p : find_proxy s n = Some p -> p_name p = n.
Proof.
  induction s as [|q s IH]; [discriminate|]. cbn [find_proxy].
  destruct (String.eqb_spec (p_name q) n); [now intros [= <-]|exact IH].
Qed.

Lemma find_none s n : find_proxy s n = None <-> ~ In n (names s).
Proof.
  induction s as [|q s IH]; [easy|]. cbn [find_proxy names map In].
  destruct (String.eqb_spec (p_name q) n); [split; [discriminate|tauto]|]. tauto.
Qed.

Lemma find_snoc s p m :
  find_proxy (s ++ [p]) m =
  match find_proxy s m with Some q => Some q | None => if String.eqb (p_name p) m then Some p else None end.
Proof. induction s as [|q s IH]; cbn [app find_proxy]; [|destruct (String.eqb (p_name q) m)]; easy. Qed.

Lemma find_replace s q n :
  find_proxy (replace_proxy s q) n =
  if String.eqb (p_name q) n then match find_proxy s n with Some _ => Some q | None => None end else find_proxy s n.
Proof.
  induction s as [|p s IH]; cbn [replace_proxy find_proxy]; [now destruct (String.eqb (p_name q) n)|].
  destruct (String.eqb_spec (p_name p) (p_name q)) as [E|E]; cbn [find_proxy].
  - rewrite E. now destruct (String.eqb (p_name q) n).
  - rewrite IH. destruct (String.eqb_spec (p_name p) n) as [<-|]; [|reflexivity].
    destruct (String.eqb_spec (p_name q) (p_name p)); congruence.
Qed.

Lemma names_replace s q : names (replace_proxy s q) = names s.
Proof.
  induction s as [|p s IH]; [reflexivity|]. cbn [replace_proxy].
  destruct (String.eqb_spec (p_name p) (p_name q)) as [E|]; unfold names in *; cbn [map]; congruence.
Qed.

Lemma replace_replace s p q : p_name p = p_name q -> replace_proxy (replace_proxy s p) q = replace_proxy s q.
Proof.
  intros E. induction s as [|x s IH]; [reflexivity|]. cbn [replace_proxy].
  destruct (String.eqb (p_name x) (p_name p)) eqn:Ex; cbn [replace_proxy]; rewrite <- E, ?Ex, ?String.eqb_refl; congruence.
Qed.

Lemma remove_split s n :
  find_proxy s n = None /\ remove_proxy s n = s \/
  exists s1 p s2, s = s1 ++ p :: s2 /\ p_name p = n /\ remove_proxy s n = s1 ++ s2.
Proof.
  induction s as [|q s IH]; [now left|]. cbn [remove_proxy find_proxy]. destruct (String.eqb_spec (p_name q) n) as [E|_].
  - right. now exists [], q, s.
  - destruct IH as [[-> ->]|(s1 & p & s2 & -> & E & ->)]; [now left|right]. now exists (q :: s1), p, s2.
Qed.

Lemma find_remove_other s n m : m <> n -> find_proxy (remove_proxy s n) m = find_proxy s m.
Proof.
  intros Hne. induction s as [|q s IH]; [reflexivity|]. cbn [remove_proxy find_proxy].
  destruct (String.eqb_spec (p_name q) n) as [E|_]; [|cbn [find_proxy]; now rewrite IH].
  now destruct (String.eqb_spec (p_name q) m); [congruence|].
Qed.

Lemma uniq_remove s n : uniq s -> uniq (remove_proxy s n) /\ find_proxy (remove_proxy s n) n = None.
Proof.
  destruct (remove_split s n) as [[Hf ->]|(s1 & p & s2 & -> & <- & ->)]; [easy|].
  rewrite find_none. unfold uniq, names. rewrite !map_app. apply NoDup_remove.
Qed.

Lemma uniq_snoc s p : uniq s -> find_proxy s (p_name p) = None -> uniq (s ++ [p]).
Proof.
  unfold uniq, names. rewrite find_none, map_app. intros H Hn.
  apply (NoDup_Add (Add_app _ _ [])). now rewrite app_nil_r.
Qed.

Lemma start_same e s p p' : start_proxy e s p = Some p' ->
  p_name p' = p_name p /\ p_up p' = p_up p /\ p_down p' = p_down p /\ p_enabled p' = true.
Proof.
  unfold start_proxy. destruct (lookup_env e (p_listen p)) as [a|]; [|discriminate].
  now destruct (port_busy e s (p_name p) (a_port a)); [|intros [= <-]].
Qed.

Section PerProxy.
  Variable P : proxy_rec -> Prop.

  Lemma Forall_replace s q :
    Forall P s -> (forall p, find_proxy s (p_name q) = Some p -> P p -> P q) -> Forall P (replace_proxy s q).
  Proof.
    induction 1 as [|p s Hp Hs IH]; [constructor|]. cbn [replace_proxy find_proxy].
    destruct (String.eqb (p_name p) (p_name q)); intros Hq; constructor; eauto.
  Qed.

  Lemma Forall_remove s n : Forall P s -> Forall P (remove_proxy s n).
  Proof.
    induction 1 as [|p s Hp Hs IH]; [constructor|]. cbn [remove_proxy].
    now destruct (String.eqb (p_name p) n); [|constructor].
  Qed.
End PerProxy.

Lemma tnames_replace l t : tnames (replace_toxic l t) = tnames l.
Proof.
  induction l as [|x l IH]; [reflexivity|]. cbn [replace_toxic].
  destruct (String.eqb_spec (t_name x) (t_name t)); unfold tnames in *; cbn [map]; congruence.
Qed.

Lemma remove_toxic_split l n :
  remove_toxic l n = l \/ exists l1 t l2, l = l1 ++ t :: l2 /\ remove_toxic l n = l1 ++ l2.
Proof.
  induction l as [|x l IH]; [now left|]. cbn [remove_toxic]. destruct (String.eqb (t_name x) n).
  - right. now exists [], x, l.
  - destruct IH as [->|(l1 & t & l2 & -> & ->)]; [now left|right]. now exists (x :: l1), t, l2.
Qed.

Lemma find_toxic_none l n : find_toxic l n = None -> ~ In n (tnames l).
Proof.
  induction l as [|x l IH]; [easy|]. cbn [find_toxic tnames map In].
  destruct (String.eqb_spec (t_name x) n); [discriminate|]. tauto.
Qed.

Lemma tnames_app a b : tnames (a ++ b) = tnames a ++ tnames b.
Proof. apply map_app. Qed.

Lemma tuniq_same p q : p_up q = p_up p -> p_down q = p_down p -> tuniq p -> tuniq q.
Proof. unfold tuniq, all_toxics. now intros -> ->. Qed.

Lemma tuniq_empty p : p_up p = [] -> p_down p = [] -> tuniq p.
Proof. unfold tuniq, all_toxics. intros -> ->. constructor. Qed.

(** the three changes of a chain: a toxic with a new name at the end of one stream, a toxic replaced
    under its name, a name removed from one stream *)
Lemma tuniq_add n l u en up dn t (down : bool) :
  NoDup (tnames (up ++ dn)) -> find_toxic (up ++ dn) (t_name t) = None ->
  tuniq (if down then mkProxy n l u en up (dn ++ [t]) else mkProxy n l u en (up ++ [t]) dn).
Proof.
  intros Hn Hx%find_toxic_none. rewrite tnames_app in Hn, Hx.
  destruct down; unfold tuniq, all_toxics; cbn [p_up p_down]; rewrite !tnames_app.
  - rewrite app_assoc. apply (NoDup_Add (Add_app _ _ [])). now rewrite app_nil_r.
  - rewrite <- app_assoc. now apply (NoDup_Add (Add_app _ _ _)).
Qed.

Lemma tuniq_put p t : tuniq p -> tuniq (put_toxic p t).
Proof.
  unfold tuniq, put_toxic, all_toxics. cbn [p_up p_down]. rewrite !tnames_app.
  now destruct (t_down t); rewrite tnames_replace.
Qed.

Lemma tuniq_del n l u en up dn (down : bool) tn :
  NoDup (tnames (up ++ dn)) ->
  tuniq (mkProxy n l u en (if down then up else remove_toxic up tn) (if down then remove_toxic dn tn else dn)).
Proof.
  unfold tuniq, all_toxics. cbn [p_up p_down]. intros H.
  destruct down; [destruct (remove_toxic_split dn tn) as [->|(l1 & t & l2 & -> & ->)]
                 |destruct (remove_toxic_split up tn) as [->|(l1 & t & l2 & -> & ->)]]; try exact H.
  - rewrite app_assoc in *. rewrite tnames_app in *. exact (NoDup_remove_1 _ _ _ H).
  - rewrite <- app_assoc in *. rewrite tnames_app in *. exact (NoDup_remove_1 _ _ _ H).
Qed.

(** a proxy whose two chains are rewritten by name-preserving / name-removing / fresh-name-adding operations *)
Lemma tuniq_build n l u en up dn up' dn' :
  NoDup (tnames (up ++ dn)) ->
  NoDup (tnames up') -> NoDup (tnames dn') ->
  (forall x, In x (tnames up') -> ~ In x (tnames dn')) ->
  tuniq (mkProxy n l u en up' dn').
Proof.
  intros _ Hu Hd Hx. unfold tuniq, all_toxics. cbn [p_up p_down]. rewrite tnames_app.
  induction Hu as [|x a Hxa _ IH]; [exact Hd|]. cbn [app]. constructor.
  - rewrite in_app_iff. intros [H|H]; [exact (Hxa H)|exact (Hx x (or_introl eq_refl) H)].
  - apply IH. intros y Hy. apply Hx. now right.
Qed.

(** one change of the registry; a replacement may do to the chains what [tuniq_add], [tuniq_put], [tuniq_del] allow,
    which is all the invariant needs to know of it *)
Inductive edit (s : server) : server -> Prop :=
| edit_add p : find_proxy s (p_name p) = None -> tuniq p -> edit s (s ++ [p])
| edit_put q : (forall p, find_proxy s (p_name q) = Some p -> tuniq p -> tuniq q) -> edit s (replace_proxy s q)
| edit_del n : edit s (remove_proxy s n).

Lemma edit_put_found s n p q :
  find_proxy s n = Some p -> p_name q = n -> (tuniq p -> tuniq q) -> edit s (replace_proxy s q).
Proof. intros Hf <- H. apply edit_put. intros p0. rewrite Hf. now intros [= <-]. Qed.

Definition edits : server -> server -> Prop := clos_refl_trans server edit.

Lemma edit_uniq s s' : edit s s' -> uniq s -> uniq s'.
Proof.
  intros [p Hf _|q _|n] Hu; [now apply uniq_snoc| |now apply uniq_remove].
  unfold uniq. now rewrite names_replace.
Qed.

Lemma edit_tuniq s s' : edit s s' -> all_tuniq s -> all_tuniq s'.
Proof.
  intros [p _ Hp|q Hq|n] Hs; [|now apply Forall_replace|now apply Forall_remove].
  apply Forall_app. now split; [|constructor].
Qed.

Lemma edits_keep (P : server -> Prop) :
  (forall s s', edit s s' -> P s -> P s') -> forall s s', edits s s' -> P s -> P s'.
Proof. intros H s s'. induction 1; eauto. Qed.

Lemma edits_cons s s1 s2 : edit s s1 -> edits s1 s2 -> edits s s2.
Proof. intros H. apply rt_trans, rt_step, H. Qed.

(** what a handler returns: an error code and the server as it was, or an answer with an effect *)
Inductive answer (s : server) (E : response -> server -> Prop) : response * server -> Prop :=
| refuse code : 400 <= code -> answer s E (err code, s)
| effect resp s' : E resp s' -> answer s E (resp, s').

Definition adds (s : server) (resp : response) (s' : server) : Prop :=
  exists p, resp = mkResp status_created (PProxy p) /\ s' = s ++ [p] /\
            find_proxy s (p_name p) = None /\ p_up p = [] /\ p_down p = [].

Definition puts (s : server) (n : string) (R : proxy_rec -> proxy_rec -> response -> Prop)
  (resp : response) (s' : server) : Prop :=
  exists p q, s' = replace_proxy s q /\ find_proxy s n = Some p /\ p_name q = n /\ R p q resp.

Lemma create_spec e s b : answer s (adds s) (h_proxy_create e s b).
Proof.
  unfold h_proxy_create. destruct b as [| |j]; [now apply refuse..|].
  destruct (dec_proxy _ j) as [inp []]; [now apply refuse|].
  destruct (String.eqb (pi_name inp) ""); [now apply refuse|].
  destruct (String.eqb (pi_upstream inp) ""); [now apply refuse|].
  destruct (find_proxy s (pi_name inp)) eqn:Hf; [now apply refuse|].
  destruct (match pi_enabled inp with Some b0 => b0 | None => create_enabled_default end).
  - destruct (start_proxy e s _) as [p'|] eqn:Hs; [|now apply refuse].
    apply start_same in Hs as (Hn & Hu & Hd & _). apply effect. exists p'. now rewrite Hn.
  - apply effect. now eexists.
Qed.

Lemma create_named e s name listen upstream :
  h_proxy_create e s (BJson (JObj [("name", JStr name); ("listen", JStr listen); ("upstream", JStr upstream)]%string)) =
  if (String.eqb name "" || String.eqb upstream "")%bool then (err status_missing_field, s) else
  match find_proxy s name with
  | Some _ => (err status_proxy_exists, s)
  | None => match start_proxy e s (mkProxy name listen upstream false [] []) with
            | Some p' => (mkResp status_created (PProxy p'), s ++ [p'])
            | None => (err status_internal, s)
            end
  end.
Proof.
  unfold h_proxy_create. change (dec_proxy _ _) with (mkPIn name listen upstream (Some create_enabled_default), false).
  cbn [pi_name pi_upstream]. now destruct (String.eqb name ""), (String.eqb upstream "").
Qed.

(** an update keeps name and chains; a proxy that cannot be started with its new address stays stopped *)
Definition readdressed (p q : proxy_rec) (resp : response) : Prop :=
  p_up q = p_up p /\ p_down q = p_down p /\ (resp = mkResp status_ok (PProxy q) \/ resp = err status_internal).

Lemma update_spec e s n b : answer s (puts s n readdressed) (h_proxy_update e s n b).
Proof.
  unfold h_proxy_update. destruct (find_proxy s n) as [p|] eqn:Hf; [|now apply refuse].
  destruct b as [| |j]; [now apply refuse..|]. destruct (dec_proxy _ j) as [inp []]; [now apply refuse|].
  destruct (lookup_env e (pi_listen inp)) as [a|]; [|now apply refuse].
  set (p1 := if (_ || _)%bool then _ else p).
  assert (H1 : p_name p1 = n /\ p_up p1 = p_up p /\ p_down p1 = p_down p)
    by (rewrite <- (find_name _ _ _ Hf); now destruct (_ || _)).
  destruct H1 as (Hn1 & Hu1 & Hd1).
  destruct (Bool.eqb _ _); [|destruct (match pi_enabled inp with Some b0 => b0 | None => p_enabled p end)].
  - apply effect. exists p, p1. repeat split; auto.
  - destruct (start_proxy e _ p1) as [p2|] eqn:Hs.
    + apply start_same in Hs as (Hn2 & Hu2 & Hd2 & _). rewrite replace_replace by congruence.
      apply effect. exists p, p2. repeat split; auto; congruence.
    + apply effect. exists p, p1. repeat split; auto.
  - rewrite replace_replace by reflexivity. apply effect. exists p, (stop_proxy p1). repeat split; auto.
Qed.

(** a toxic request keeps the names of the chains distinct; only the in-place update of finding F3
    changes a chain and answers an error *)
Definition retoxed (p q : proxy_rec) (resp : response) : Prop :=
  (tuniq p -> tuniq q) /\ (400 <= status resp -> update_in_place = true).

Lemma toxic_create_spec s n b : answer s (puts s n retoxed) (h_toxic_create s n b).
Proof.
  unfold h_toxic_create. destruct (find_proxy s n) as [p|] eqn:Hf; [|now apply refuse].
  destruct b as [| |j]; [now apply refuse..|]. destruct (dec_toxic _ j) as [ti []]; [now apply refuse|].
  destruct (parse_direction _) as [down|]; [|now apply refuse]. destruct (lookup_fields _ _); [|now apply refuse].
  destruct (find_toxic _ _) eqn:Hft; [now apply refuse|].
  destruct (dec_update _ _ _ j) as [[a t0] []]; [now apply refuse|].
  apply effect. exists p. eexists. repeat split; [exact Hf|rewrite <- (find_name _ _ _ Hf); now destruct down| |easy].
  intros Hp. now apply tuniq_add.
Qed.

Lemma toxic_update_spec s n t b : answer s (puts s n retoxed) (h_toxic_update s n t b).
Proof.
  unfold h_toxic_update. destruct (find_proxy s n) as [p|] eqn:Hf; [|now apply refuse].
  destruct (find_toxic _ _) as [tx|]; [|now apply refuse]. destruct b as [| |j]; [now apply refuse..|].
  destruct (dec_update _ _ _ j) as [[a tox] []]; [destruct update_in_place eqn:Hip; [|now apply refuse]|];
    (apply effect; exists p; eexists; repeat split; [exact Hf|exact (find_name _ _ _ Hf)|apply tuniq_put|easy]).
Qed.

Lemma toxic_delete_spec s n t : answer s (puts s n retoxed) (h_toxic_delete s n t).
Proof.
  unfold h_toxic_delete. destruct (find_proxy s n) as [p|] eqn:Hf; [|now apply refuse].
  destruct (find_toxic _ _); [|now apply refuse].
  apply effect. exists p. eexists. repeat split; [exact Hf|exact (find_name _ _ _ Hf)|apply tuniq_del|easy].
Qed.

Lemma answer_ok s (E : response -> server -> Prop) resp s' : answer s E (resp, s') -> status resp < 400 -> E resp s'.
Proof. inversion 1; [cbn; lia|easy]. Qed.

(** what [to_edit] below asks of an effect *)
Definition one_edit (s : server) (E : response -> server -> Prop) : Prop :=
  forall resp s', E resp s' -> edit s s' /\ (400 <= status resp -> update_in_place = true).

Lemma adds_one_edit s : one_edit s (adds s).
Proof. intros resp s' (p & -> & -> & Hf & Hu & Hd). now split; [apply edit_add; [|apply tuniq_empty]|]. Qed.

Lemma retoxed_one_edit s n : one_edit s (puts s n retoxed).
Proof. intros resp s' (p & q & -> & Hf & Hn & Hq & Hip). now split; [apply (edit_put_found _ n p)|]. Qed.

Lemma adds_read s resp s' :
  adds s resp s' ->
  exists p, resp = mkResp status_created (PProxy p) /\ find_proxy s (p_name p) = None /\
            find_proxy s' (p_name p) = Some p /\ forall m, m <> p_name p -> find_proxy s' m = find_proxy s m.
Proof.
  intros (p & -> & -> & Hf & _). exists p. repeat split; trivial; [now rewrite find_snoc, Hf, String.eqb_refl|].
  intros m Hm. rewrite find_snoc. destruct (find_proxy s m); [reflexivity|].
  now destruct (String.eqb_spec (p_name p) m); [congruence|].
Qed.

Lemma puts_frame s n (R : proxy_rec -> proxy_rec -> response -> Prop) resp s' m :
  puts s n R resp s' -> m <> n -> find_proxy s' m = find_proxy s m.
Proof.
  intros (p & q & -> & _ & <- & _) Hm. rewrite find_replace. destruct (String.eqb_spec (p_name q) m); congruence.
Qed.

Lemma answer_frame s n (R : proxy_rec -> proxy_rec -> response -> Prop) x m :
  answer s (puts s n R) x -> m <> n -> find_proxy (snd x) m = find_proxy s m.
Proof. intros [code _|resp s' E]; [reflexivity|exact (puts_frame _ _ _ _ _ m E)]. Qed.

Lemma puts_read s n (R : proxy_rec -> proxy_rec -> response -> Prop) resp s' :
  puts s n R resp s' -> exists p q, find_proxy s n = Some p /\ find_proxy s' n = Some q /\ R p q resp.
Proof.
  intros (p & q & -> & Hf & <- & H). exists p, q. now rewrite find_replace, String.eqb_refl, Hf.
Qed.

(** populate and reset go through a list: each entry makes its edits, and the first address that cannot be
    bound ends the request with a 500, the entries before it applied *)
Definition applied (s : server) (x : response * server) : Prop :=
  edits s (snd x) /\ (400 <= status (fst x) -> status (fst x) = status_internal).

Lemma applied_cons s s1 x : edit s s1 -> applied s1 x -> applied s x.
Proof. intros H [H1 Hst]. exact (conj (edits_cons _ _ _ H H1) Hst). Qed.

Lemma populate_apply_applied e : forall items s done, applied s (populate_apply e s items done).
Proof.
  induction items as [|i r IH]; intros s done; cbn [populate_apply]; [now split; [apply rt_refl|]|].
  assert (Hfresh : forall s0 q, p_up q = [] -> p_down q = [] -> edit s0 (replace_proxy s0 q))
    by (intros; apply edit_put; intros; now apply tuniq_empty).
  assert (Hstop : forall s1 done1, edits s s1 -> applied s (mkResp status_internal (PPopulate done1), s1))
    by now split.
  destruct (find_proxy s (pi_name i)) as [old|] eqn:Hf.
  - destruct (lookup_env e (pi_listen i)) as [a|]; [|apply Hstop, rt_refl]. destruct (negb _); [apply IH|].
    assert (H1 : edit s (replace_proxy s (stop_proxy old)))
      by (apply (edit_put_found _ _ _ _ Hf); [exact (find_name _ _ _ Hf)|now apply tuniq_same]).
    destruct (match pi_enabled i with Some b => b | None => true end).
    + destruct (start_proxy e _ _) as [p'|] eqn:Hs; [|now apply Hstop, rt_step].
      apply start_same in Hs as (_ & Hu & Hd & _). apply (applied_cons _ _ _ H1). eapply applied_cons; [|apply IH]. now apply Hfresh.
    + apply (applied_cons _ _ _ H1). eapply applied_cons; [|apply IH]. now apply Hfresh.
  - destruct (match pi_enabled i with Some b => b | None => true end).
    + destruct (start_proxy e s _) as [p'|] eqn:Hs; [|apply Hstop, rt_refl]. apply start_same in Hs as (Hn & Hu & Hd & _).
      eapply applied_cons; [|apply IH]. apply edit_add; [now rewrite Hn|now apply tuniq_empty].
    + eapply applied_cons; [|apply IH]. apply edit_add; [exact Hf|now apply tuniq_empty].
Qed.

(** a body that cannot be decoded or lacks a field is refused before the first entry is applied *)
Lemma populate_applied e s b : snd (h_populate e s b) = s \/ applied s (h_populate e s b).
Proof.
  unfold h_populate. destruct b as [| |[]]; auto.
  destruct (dec_populate _) as [ins []]; auto. destruct (negb _); auto using populate_apply_applied.
Qed.

Lemma reset_applied e : forall todo s, applied s (reset_all e s todo).
Proof.
  induction todo as [|p0 r IH]; intros s; cbn [reset_all]; [now split; [apply rt_refl|]|].
  destruct (find_proxy s (p_name p0)) as [p|]; [|apply IH].
  destruct (p_enabled p); [|destruct (start_proxy e s p) as [p'|]; [|now split; [apply rt_refl|]]];
    (eapply applied_cons; [|apply IH]; apply edit_put; intros; now apply tuniq_empty).
Qed.

Lemma update_applied e s n b : snd (h_proxy_update e s n b) = s \/ applied s (h_proxy_update e s n b).
Proof.
  destruct (update_spec e s n b) as [code _|resp s' (p & q & -> & Hf & Hn & Hu & Hd & Hst)]; [now left|right; split].
  - apply rt_step, (edit_put_found _ n p); trivial. now apply tuniq_same.
  - now destruct Hst as [-> | ->].
Qed.

Lemma reads_are_pure s n t :
  snd (h_proxy_index s) = s /\ snd (h_proxy_show s n) = s /\ snd (h_toxic_index s n) = s /\ snd (h_toxic_show s n t) = s.
Proof.
  unfold h_proxy_index, h_proxy_show, h_toxic_index, h_toxic_show.
  destruct (find_proxy s n); [destruct (find_toxic _ _)|]; easy.
Qed.

(** what a request does, by the handler the route table names: it leaves the server alone (the router's own
    answers, the browser refusal, the reads, and whatever a handler refuses); or it makes one edit, and answers
    an error with it only by the in-place update of finding F3; or it is one of the three that bind
    addresses, applies edits and answers no error but 500 *)
Inductive routed (s : server) : option string -> response * server -> Prop :=
| to_read h x : snd x = s -> routed s h x
| to_edit h x : edit s (snd x) -> (400 <= status (fst x) -> update_in_place = true) -> routed s h x
| to_bind h x : (h = "ProxyUpdate" \/ h = "Populate" \/ h = "ResetState")%string -> applied s x -> routed s (Some h) x.

Lemma answer_routed s (E : response -> server -> Prop) h x : one_edit s E -> answer s E x -> routed s h x.
Proof. intros HE [code _|resp s' [H1 H2]%HE]; [now apply to_read|now apply to_edit]. Qed.

(** a property of what a chain of comparisons with names selects holds if each branch has it under its name *)
Lemma if_eqb_ind {A} (P : string -> A -> Prop) h k (x y : A) :
  P k x -> P h y -> P h (if String.eqb h k then x else y).
Proof. now destruct (String.eqb_spec h k) as [->|]. Qed.

Lemma api_step_routed e s r : routed s (fst (route routes (r_meth r) (r_path r) false)) (api_step e s r).
Proof.
  unfold api_step. destruct (route routes _ _ _) as [[h|] seen]; [|now destruct seen; apply to_read].
  destruct (r_browser r); [now apply to_read|].
  pose proof (reads_are_pure s (seg (r_path r) 1) (seg (r_path r) 3)) as (Hi & Hs & Hti & Hts).
  repeat apply (if_eqb_ind (fun k x => routed s (Some k) x)); try solve [apply to_read; trivial].
  - (* ProxyCreate *) exact (answer_routed _ _ _ _ (adds_one_edit s) (create_spec e s _)).
  - (* Populate *) destruct (populate_applied e s (r_body r)); [now apply to_read|apply to_bind; auto].
  - (* ResetState *) apply to_bind, reset_applied; auto.
  - (* ProxyUpdate *) destruct (update_applied e s (seg (r_path r) 1) (r_body r)); [now apply to_read|apply to_bind; auto].
  - (* ProxyDelete *) unfold h_proxy_delete. destruct (find_proxy s _); [now apply to_edit; [apply edit_del|]|now apply to_read].
  - (* ToxicCreate *) exact (answer_routed _ _ _ _ (retoxed_one_edit s _) (toxic_create_spec s _ _)).
  - (* ToxicUpdate *) exact (answer_routed _ _ _ _ (retoxed_one_edit s _) (toxic_update_spec s _ _ _)).
  - (* ToxicDelete *) exact (answer_routed _ _ _ _ (retoxed_one_edit s _) (toxic_delete_spec s _ _)).
Qed.

Theorem step_edits e s r : edits s (snd (api_step e s r)).
Proof. destruct (api_step_routed e s r) as [h x ->|h x H _|h x _ [H _]]; [apply rt_refl|now apply rt_step|exact H]. Qed.

Theorem run_edits e : forall rs s, edits s (snd (api_run e s rs)).
Proof.
  induction rs as [|r rs IH]; intros s; cbn [api_run]; [apply rt_refl|].
  pose proof (step_edits e s r) as H1. destruct (api_step e s r) as [resp s1].
  specialize (IH s1). destruct (api_run e s1 rs) as [resps s2]. exact (rt_trans _ _ _ _ _ H1 IH).
Qed.

(** the registry invariant (C05): proxies are unique by name, and so are the toxics of each proxy across
    both streams. Spelled out as C05 states it, and about variables: asked to convert [uniq x] with its
    unfolding at a concrete server [x], the kernel evaluates [x] first, which is slow. *)
Theorem edits_registry s s' :
  edits s s' ->
  NoDup (map p_name s) -> Forall (fun p => NoDup (map t_name (all_toxics p))) s ->
  NoDup (map p_name s') /\ Forall (fun p => NoDup (map t_name (all_toxics p))) s'.
Proof. intros H Hu Ht. exact (conj (edits_keep uniq edit_uniq _ _ H Hu) (edits_keep all_tuniq edit_tuniq _ _ H Ht)). Qed.

Corollary reachable_uniq e rs : uniq (snd (api_run e [] rs)).
Proof. exact (edits_keep uniq edit_uniq _ _ (run_edits e rs []) (NoDup_nil _)). Qed.
