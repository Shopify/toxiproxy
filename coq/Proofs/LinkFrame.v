(** Frame facts over all schedules: a link action never changes which toxic (and which toxicity
    decision) a stub runs, nor channel capacities (C11_per_link, C14_whole_connection); the two byte
    counters of a link are exactly the bytes taken from the source / written to the sink (C20). *)
From TP Require Import Model.Prelude Model.Toxics Model.Timed Proofs.GoArith Proofs.LinkSteps.

Definition ident (s : stub) : toxic * bool * Z := (s_tx s, s_eff s, s_cap s).
Definition idents (l : link) := map ident (l_stubs l).

Lemma map_set_nth_none {A B} (f : A -> B) (l : list A) i x :
  nth_error l i = None -> map f (set_nth i x l) = map f l.
Proof.
  revert i; induction l as [|y l IH]; intros [|i] Hn; simpl; try discriminate; auto.
  f_equal. now apply IH.
Qed.

Lemma idents_upd l i s s' :
  nth_error (l_stubs l) i = Some s -> ident s' = ident s -> idents (upd_stub l i s') = idents l.
Proof. apply map_set_nth. Qed.

Lemma idents_stub_input l i s c q : nth_error (l_stubs l) i = Some s -> idents (stub_input l i s c q) = idents l.
Proof. intros Hn. rewrite stub_input_eq. now apply idents_upd with s. Qed.

Lemma idents_offer l j c l1 : offer l j c = Some l1 -> idents l1 = idents l.
Proof.
  intros H%offer_offered. destruct H.
  - unfold idents. now rewrite deliver_sink_stubs.
  - now apply idents_upd with t.
  - now apply idents_stub_input.
Qed.

Lemma idents_close_downstream l j : idents (close_downstream l j) = idents l.
Proof.
  unfold idents. rewrite close_downstream_stubs. destruct (nth_error (l_stubs l) j) as [t|] eqn:Hn; [|reflexivity].
  now apply map_set_nth with t.
Qed.

Theorem step_idents l a l' : sched_step l a = Some l' -> idents l' = idents l.
Proof.
  intros H%sched_step_does. destruct H; try reflexivity.
  - (* a stage takes from its input *) now apply idents_stub_input.
  - (* a send completes *) rewrite stub_sent_eq, <- (idents_offer _ _ _ _ Ho). now apply idents_upd with s.
  - (* a stage closes its stub *) rewrite idents_close_downstream. now apply idents_upd with s.
  - (* a timer fires *) now apply idents_upd with s.
  - (* a hand-off is given up *) now apply idents_upd with s.
  - (* the reader hands over *) exact (idents_offer _ _ _ _ Ho).
  - (* the reader sees the close *) now rewrite idents_close_downstream.
Qed.

Theorem run_idents sigma l l' : sched_run l sigma = Some l' -> idents l' = idents l.
Proof.
  intros H. apply (sched_run_ind (fun x => idents x = idents l)) with sigma l; [|exact H|reflexivity].
  intros x a x' Hx Hs. rewrite <- Hx. exact (step_idents _ _ _ Hs).
Qed.

Lemma step_length l a l' : sched_step l a = Some l' -> length (l_stubs l') = length (l_stubs l).
Proof. intros H. apply step_idents in H. unfold idents in H. now rewrite <- (map_length ident), H, map_length. Qed.

Definition unread (l : link) : bytes :=
  match l_rd l with RClosed => [] | _ => l_rest l ++ (fix sb (src : list src_ev) : bytes :=
     match src with [] => [] | SWrite _ d :: r => d ++ sb r | SClose _ :: _ => [] end) (l_src l) end.

Definition counters_ok (n : Z) (l : link) : Prop :=
  l_tx l = zlen (sink_bytes l) /\ l_rx l + zlen (unread l) = n.

Lemma counters_offer n l j c l1 : offer l j c = Some l1 -> counters_ok n l -> counters_ok n l1.
Proof.
  intros H%offer_offered. destruct H; [|auto|].
  - intros [H1 H2]. destruct (deliver_sink_bytes l c) as [Hb Ht]. split; [rewrite Hb, Ht, zlen_app; lia|].
    unfold deliver_sink. now destruct (_ =? 0).
  - now rewrite stub_input_eq.
Qed.

Lemma counters_close_downstream n l j : counters_ok n l -> counters_ok n (close_downstream l j).
Proof. unfold close_downstream. now destruct (nth_error (l_stubs l) j). Qed.

Lemma take_len (d : bytes) :
  Z.of_nat (Z.to_nat (Z.min read_buf_size (zlen d))) + zlen (skipn (Z.to_nat (Z.min read_buf_size (zlen d))) d) = zlen d.
Proof. rewrite zlen_skipn. pose proof (zlen_nonneg d). lia. Qed.

Theorem step_counters n l a l' : sched_step l a = Some l' -> counters_ok n l -> counters_ok n l'.
Proof.
  intros H%sched_step_does. destruct H; auto.
  - (* a stage takes from its input *) now rewrite stub_input_eq.
  - (* a send completes *) rewrite stub_sent_eq. exact (counters_offer _ _ _ _ _ Ho).
  - (* a stage closes its stub *) intros H. now apply counters_close_downstream.
  - (* the reader hands over *) intros H%(counters_offer _ _ _ _ _ Ho).
    injection (offer_reader _ _ _ _ Ho) as E1 _ _ _. unfold counters_ok, unread in *. now rewrite E1, Hrd in H.
  - (* the reader takes a piece *) intros [H1 H2]. split; [exact H1|]. unfold unread in *. rewrite Hrd in H2. cbn.
    pose proof (take_len d). rewrite zlen_app.
    destruct Hfrom as [[Hr Hs]|[Hr [t Hs]]]; rewrite Hr, Hs in H2; cbn in H2; rewrite zlen_app in H2; lia.
  - (* the reader skips an empty write *) intros H. unfold counters_ok, unread in *. now rewrite Hrd, Hr, Hs in H.
  - (* the reader sees the close *) intros H. apply counters_close_downstream. unfold counters_ok, unread in *. now rewrite Hrd, Hr, Hs in H.
Qed.

