(** Sequences of chunks through one stage in isolation (ready receiver): the closed forms that the
    C08/C09 sequence theorems state for the bandwidth toxic (chunks of at most 100 ms worth of
    budget) and the latency toxic, and the rate bound of the former. *)
From TP Require Import Model.Prelude Model.Toxics Proofs.C09Proofs.

Definition arrivals (arr : list (Z * chunk)) : list (Z * option chunk) := map (fun pc => (fst pc, Some (snd pc))) arr.

(** chunk k is picked up at p_k with credit a_k <= 0 and leaves at p_k + max(0, a_k + D_k) *)
Fixpoint bw_sched (rate acc : Z) (arr : list (Z * chunk)) : list (Z * bytes) * Z :=
  match arr with
  | [] => ([], acc)
  | (p, c) :: r =>
    let sl := acc + dur (zlen (cdata c)) rate in
    let '(es, a') := bw_sched rate (Z.min 0 sl) r in
    ((p + Z.max 0 sl, cdata c) :: es, a')
  end.

Definition small_for (rate : Z) (c : chunk) : Prop := zlen (cdata c) <= rate * 100 /\ zlen (cdata c) <= 4294967296.

Fixpoint picked_after (prev : Z) (arr : list (Z * chunk)) (es : list (Z * bytes)) : Prop :=
  match arr, es with
  | (p, _) :: r, (e, _) :: es' => prev <= p /\ picked_after e r es'
  | _, _ => True
  end.

Fixpoint sumlen (arr : list (Z * chunk)) : Z :=
  match arr with [] => 0 | (_, c) :: r => zlen (cdata c) + sumlen r end.

Lemma bw_sched_cons rate acc p (c : chunk) r :
  let sl := acc + dur (zlen (cdata c)) rate in
  fst (bw_sched rate acc ((p, c) :: r)) = (p + Z.max 0 sl, cdata c) :: fst (bw_sched rate (Z.min 0 sl) r).
Proof. cbn [bw_sched]. now destruct (bw_sched rate _ r). Qed.

(** the rate bound in bytes, by induction along the schedule with the first pick-up and the credit
    generalised *)
Theorem bw_rate_bound rate (Hr : 0 < rate) : forall arr acc base,
  picked_after base arr (fst (bw_sched rate acc arr)) ->
  forall k e d, nth_error (fst (bw_sched rate acc arr)) k = Some (e, d) ->
  1000000 * sumlen (firstn (S k) arr) < rate * (e - base - acc) + rate * Z.of_nat (S k).
Proof.
  induction arr as [|[p c] r IH]; intros acc base Hp k e d Hn; [now destruct k|].
  rewrite bw_sched_cons in Hp, Hn. destruct Hp as [Hbp Hp].
  pose proof (dur_bound (zlen (cdata c)) rate Hr) as HD.
  set (sl := acc + dur (zlen (cdata c)) rate) in *.
  (* the chunk leaves at e1 with credit a1, and e1 + a1 = p + acc + D: counted from there the bound
     for the chunks behind it is short of the goal by rate * D, which exceeds 10^6 * L - rate *)
  assert (He : p + sl <= p + Z.max 0 sl /\ p + Z.max 0 sl + Z.min 0 sl = p + sl) by lia.
  set (e1 := p + Z.max 0 sl) in *. set (a1 := Z.min 0 sl) in *.
  destruct k as [|k]; cbn [nth_error firstn sumlen] in *.
  - injection Hn as <- _. nia.
  - specialize (IH a1 e1 Hp k e d Hn). nia.
Qed.

Fixpoint lat_sched (L : Z) (arr : list (Z * chunk)) : list (Z * bytes) :=
  match arr with [] => [] | (p, c) :: r => (Z.max p (cts c + L), cdata c) :: lat_sched L r end.
