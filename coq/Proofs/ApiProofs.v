(** C06 on the API model: a rejected request changes nothing. *)
From Coq Require Import String.
From TP Require Import Model.Prelude Extracted Model.Api Proofs.ApiInv.

Definition rejected (r : response) : Prop := 400 <= status r.

(** C06 on the model: every answer >= 400 leaves the whole configuration - proxies, addresses,
    enabled flags, toxics, their order, attributes and toxicity - exactly as it was, except for a
    500 of an update / populate / reset (listen address cannot be resolved or bound) *)
Theorem rejected_unchanged (Hcopy : update_in_place = false) e s r :
  rejected (fst (api_step e s r)) ->
  snd (api_step e s r) = s \/
  (status (fst (api_step e s r)) = status_internal /\
   exists h, fst (route routes (r_meth r) (r_path r) false) = Some h /\
             (h = "ProxyUpdate" \/ h = "Populate" \/ h = "ResetState")%string).
Proof.
  destruct (api_step_routed e s r) as [h x Hx|h x _ Hip|h x Hh [_ H5]]; intros Hr; [now left| |eauto 6].
  (* one edit with an error status would be the in-place update *)
  specialize (Hip Hr). congruence.
Qed.
