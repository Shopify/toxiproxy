(** Facts about the Go integer model of Prelude (wrap64, godiv) and list slicing. *)
From TP Require Import Model.Prelude.
From Coq Require Import ZifyNat.

(** [lia] reads the two constants as numerals: no [unfold two63] before it anywhere. *)
#[global] Instance Op_two63 : ZifyClasses.CstOp two63 := { TCst := 9223372036854775808; TCstInj := eq_refl }.
Add Zify CstOp Op_two63.
#[global] Instance Op_two64 : ZifyClasses.CstOp two64 := { TCst := 18446744073709551616; TCstInj := eq_refl }.
Add Zify CstOp Op_two64.

Lemma wrap64_id z : - two63 <= z < two63 -> wrap64 z = z.
Proof. intros H. unfold wrap64. rewrite Z.mod_small; lia. Qed.

Lemma wrap64_range z : - two63 <= wrap64 z < two63.
Proof.
  unfold wrap64. generalize (Z.mod_pos_bound (z + two63) two64 eq_refl).
  (* as a variable: [lia] would replace the remainder by its defining equations *)
  generalize ((z + two63) mod two64). lia.
Qed.

(** math.MaxInt64 / 2 and / 100, as the extracted guards spell them *)
Lemma maxint_half : godiv 9223372036854775807 2 = 4611686018427387903.
Proof. reflexivity. Qed.
Lemma maxint_cent : godiv 9223372036854775807 100 = 92233720368547758.
Proof. reflexivity. Qed.

Lemma godiv_nonneg a b : 0 <= a -> 0 < b -> 0 <= godiv a b <= a.
Proof.
  intros Ha Hb. unfold godiv. rewrite Z.quot_div_nonneg by lia.
  split; [apply Z.div_pos; lia|]. apply Z.div_le_upper_bound; nia.
Qed.

Lemma godiv_div a b : 0 <= a -> 0 < b -> godiv a b = a / b.
Proof. unfold godiv. apply Z.quot_div_nonneg; lia. Qed.

Lemma zlen_nonneg {A} (l : list A) : 0 <= zlen l.
Proof. unfold zlen; lia. Qed.

Lemma zlen_app {A} (a b : list A) : zlen (a ++ b) = zlen a + zlen b.
Proof. unfold zlen. rewrite app_length. lia. Qed.

Lemma zlen_nil_iff {A} (l : list A) : zlen l = 0 <-> l = [].
Proof. destruct l; split; try reflexivity; discriminate. Qed.

Lemma zlen_firstn {A} (l : list A) (n : nat) : zlen (firstn n l) = Z.min (Z.of_nat n) (zlen l).
Proof. unfold zlen. rewrite firstn_length. lia. Qed.

Lemma zlen_skipn {A} (l : list A) (n : nat) : zlen (skipn n l) = Z.max 0 (zlen l - Z.of_nat n).
Proof. unfold zlen. rewrite skipn_length. lia. Qed.

Lemma slice_to_from {A} (l : list A) (r : Z) : slice_to l r ++ slice_from l r = l.
Proof. unfold slice_to, slice_from. apply firstn_skipn. Qed.

Lemma zlen_slice_to {A} (l : list A) (r : Z) : 0 <= r <= zlen l -> zlen (slice_to l r) = r.
Proof. intros H. unfold slice_to. rewrite zlen_firstn. lia. Qed.

Lemma zlen_slice_from {A} (l : list A) (r : Z) : 0 <= r <= zlen l -> zlen (slice_from l r) = zlen l - r.
Proof. intros H. unfold slice_from. rewrite zlen_skipn. lia. Qed.

Lemma zlen_slice_to_min {A} (l : list A) (n : Z) : zlen (slice_to l n) = Z.min (Z.max n 0) (zlen l).
Proof. unfold slice_to. rewrite zlen_firstn. lia. Qed.

Lemma slice_to_all {A} (l : list A) (n : Z) : zlen l <= n -> slice_to l n = l.
Proof. intros H. apply firstn_all2. unfold zlen in H. lia. Qed.

Lemma slice_to_app {A} (a b : list A) (n : Z) : slice_to (a ++ b) n = slice_to a n ++ slice_to b (n - zlen a).
Proof. unfold slice_to, zlen. now rewrite firstn_app, Z2Nat.inj_sub, Nat2Z.id by apply Nat2Z.is_nonneg. Qed.
