(** C17: populate is idempotent on matching entries and replaces on difference; reset enables
    every proxy and removes every toxic. Over the API model of Model/Api.v. *)
From Coq Require Import String.
From TP Require Import Model.Prelude Extracted Model.Json Model.Api Proofs.ApiInv.

(** an entry matches an existing proxy as the code compares them (Proxy.Differs): the stored listen
    string equals the printed form of the resolved requested address, and the upstream texts agree *)
Definition entry_matches (e : env) (s : server) (i : proxy_in) : Prop :=
  exists old a, find_proxy s (pi_name i) = Some old /\ lookup_env e (pi_listen i) = Some a /\
                p_listen old = a_resolved a /\ p_upstream old = pi_upstream i.

Definition existing (s : server) (i : proxy_in) : list proxy_rec :=
  match find_proxy s (pi_name i) with Some p => [p] | None => [] end.

(** populate with only matching entries: 201, the existing proxies in request order, and the
    state - proxies, enabled flags, toxic chains - exactly as before *)
Lemma populate_apply_idempotent e s : forall items done,
  Forall (entry_matches e s) items ->
  populate_apply e s items done =
  (mkResp status_created (PPopulate (done ++ flat_map (existing s) items)), s).
Proof.
  induction items as [|i r IH]; intros done H; cbn [populate_apply flat_map]; [now rewrite app_nil_r|].
  inversion H as [|? ? (old & a & Hf & Hl & Hli & Hu) Hr]; subst. unfold existing at 1.
  rewrite Hf, Hl, Hli, Hu, !String.eqb_refl. cbn [negb orb]. rewrite IH by exact Hr. now rewrite <- app_assoc.
Qed.

Fixpoint repeat_populate (e : env) (s : server) (items : list proxy_in) (n : nat) : server :=
  match n with O => s | S n' => repeat_populate e (snd (populate_apply e s items [])) items n' end.

Definition clean (p : proxy_rec) : Prop := p_enabled p = true /\ p_up p = [] /\ p_down p = [].

Definition clean_at (s : server) (n : string) : Prop := forall p, find_proxy s n = Some p -> clean p.

Lemma clean_put s q n : clean q -> clean_at s n \/ p_name q = n -> clean_at (replace_proxy s q) n.
Proof.
  intros Hc Hn p. rewrite find_replace. destruct (String.eqb_spec (p_name q) n) as [_|Hne].
  - now destruct (find_proxy s n); intros [= <-].
  - now destruct Hn as [Hn|Hn]; [apply Hn|].
Qed.

Lemma reset_all_clean e n : forall todo s resp s',
  reset_all e s todo = (resp, s') -> status resp = status_no_content ->
  clean_at s n \/ In n (map p_name todo) -> clean_at s' n.
Proof.
  induction todo as [|p0 r IH]; intros s resp s' H Hst Hn; cbn [reset_all map In] in *.
  - injection H as <- <-. now destruct Hn.
  - destruct (find_proxy s (p_name p0)) as [p|] eqn:Hf.
    + assert (Hq : forall q, clean q -> p_name q = p_name p0 -> clean_at (replace_proxy s q) n \/ In n (map p_name r))
        by (intros q Hc Hq; rewrite <- Hq in Hn; pose proof (clean_put s q n Hc); tauto).
      apply find_name in Hf.
      destruct (p_enabled p); [|destruct (start_proxy e s p) as [p'|] eqn:Hs; [|now injection H as <- <-]].
      * eapply IH; eauto. now apply Hq.
      * apply start_same in Hs as (Hp' & _). eapply IH; eauto. apply Hq; [easy|cbn [p_name]; congruence].
    + eapply IH; eauto. destruct Hn as [Hn|[<-|Hn]]; auto. left. intros p. now rewrite Hf.
Qed.

(** finding F10: "same socket address" and the coded comparison differ for the :port spelling
    (the bound listener prints [::]:port, the resolved request prints :port) - a repeat of the
    same populate body replaces the proxy and its toxics are gone *)
Definition f10_env : env :=
  [(":7000", Some (mkAddr 7000 ":7000" "[::]:7000")); ("[::]:7000", Some (mkAddr 7000 "[::]:7000" "[::]:7000"))]%string.
Definition f10_body : body :=
  BJson (JArr [JObj [("name", JStr "a"); ("listen", JStr ":7000"); ("upstream", JStr "u:1")]])%string.
