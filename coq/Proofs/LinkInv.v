(** M4 data path, all schedules: for a chain of data-preserving toxics,
    [delivered ++ in flight ++ pending] is the source stream in every reachable state, whatever
    the scheduler does (C01_safety). Proved once against the stage contract. *)
From TP Require Import Model.Prelude Model.Toxics Model.Timed Proofs.StageContract Proofs.LinkSteps.

Definition qbytes (q : list chunk) : bytes := concat (map cdata q).
Definition seg (s : stub) : bytes := held (s_st s) ++ qbytes (s_inq s).

(** bytes inside the stubs, oldest first (the last stub is nearest to the sink) *)
Fixpoint flow (ss : list stub) : bytes :=
  match ss with [] => [] | s :: r => flow r ++ seg s end.

Fixpoint src_bytes (src : list src_ev) : bytes :=
  match src with
  | [] => []
  | SWrite _ d :: r => d ++ src_bytes r
  | SClose _ :: _ => []
  end.

Definition pending (l : link) : bytes :=
  match l_rd l with
  | RClosed => []
  | RSend c => cdata c ++ l_rest l ++ src_bytes (l_src l)
  | RIdle => l_rest l ++ src_bytes (l_src l)
  end.

Definition stream (l : link) : bytes := sink_bytes l ++ flow (l_stubs l) ++ pending l.

Definition stub_ok (s : stub) : Prop :=
  preserving (eff_tx s) /\ attrs_ok (eff_tx s) /\ wf (eff_tx s) (s_st s) /\ pstate_ok (eff_tx s) (s_ps s).

Definition link_ok (l : link) : Prop := Forall stub_ok (l_stubs l).

Lemma flow_app a b : flow (a ++ b) = flow b ++ flow a.
Proof. induction a as [|x a IH]; simpl; [now rewrite app_nil_r|]. rewrite IH. now rewrite app_assoc. Qed.

Lemma flow_set_nth ss : forall i s s', nth_error ss i = Some s -> seg s' = seg s -> flow (set_nth i s' ss) = flow ss.
Proof. induction ss as [|x ss IH]; intros [|i] s s' Hn E; simpl in *; try discriminate; [congruence|now rewrite (IH i s)]. Qed.

Lemma qbytes_app q c : qbytes (q ++ [c]) = qbytes q ++ cdata c.
Proof. unfold qbytes. rewrite map_app, concat_app. simpl. now rewrite app_nil_r. Qed.

Lemma sink_bytes_cons (t : Z) (d : bytes) (tr : list (Z * bytes)) :
  concat (map snd (rev ((t, d) :: tr))) = concat (map snd (rev tr)) ++ d.
Proof. simpl. rewrite map_app, concat_app. simpl. now rewrite app_nil_r. Qed.

(** [stub_ok] amounts to its first and third clause: [attrs_ok] holds of every toxic, and only
    limit_data, which is not data-preserving, asks anything of the persistent state *)
Lemma stub_ok_intro s : preserving (eff_tx s) -> wf (eff_tx s) (s_st s) -> stub_ok s.
Proof. repeat split; auto using attrs_ok_all, preserving_pstate_ok. Qed.

Lemma stub_ok_upd s s' :
  stub_ok s -> (s_tx s', s_eff s') = (s_tx s, s_eff s) -> wf (eff_tx s) (s_st s') -> stub_ok s'.
Proof. intros (Hp & _) [= Htx Heff] Hw. apply stub_ok_intro; unfold eff_tx; now rewrite Htx, Heff. Qed.

Lemma stub_ok_frame s s' : stub_ok s -> (s_tx s', s_eff s', s_st s') = (s_tx s, s_eff s, s_st s) -> stub_ok s'.
Proof. intros Hs [= Htx Heff Hst]. apply (stub_ok_upd s); [exact Hs|congruence|]. rewrite Hst. apply Hs. Qed.

(** the input arm: the stage takes [c] (or the nil of a closed input) and holds exactly that *)
Lemma input_ok s acc tmr now ds c q :
  stub_ok s -> s_st s = Idle acc tmr ->
  let s' := set_inq (with_st s (fst (on_input (eff_tx s) (s_ps s) now ds c (s_st s)))) q in
  stub_ok s' /\ seg s' = match c with Some ch => cdata ch | None => [] end ++ qbytes q.
Proof.
  intros Hs Hst. pose proof Hs as (Hp & _ & Hw & Hps).
  rewrite Hst in *. destruct (on_input_wf _ (s_ps s) now ds c _ _ Hw) as [Hw' Hk].
  split; [now apply (stub_ok_upd s)|]. unfold seg. cbn [set_inq with_st s_st s_inq]. f_equal.
  destruct c; [exact (keeps_preserving _ _ _ Hp Hk)|exact Hk].
Qed.

Lemma sent_ok s c now :
  stub_ok s -> sends (s_st s) = Some c ->
  let r := on_sent (eff_tx s) (s_ps s) now (s_st s) in
  let s' := mkStub (s_tx s) (s_eff s) (fst r) (snd r) (s_inq s) (s_cap s) (s_in_closed s) (s_closed s) in
  stub_ok s' /\ seg s = cdata c ++ seg s'.
Proof.
  intros Hs Hc. pose proof Hs as (_ & _ & Hw & Hps). destruct (on_sent_wf _ _ now _ c Hw Hps Hc) as (Hw' & Hps' & Hh).
  split; [now apply (stub_ok_upd s)|]. unfold seg. cbn. now rewrite Hh, app_assoc.
Qed.

Lemma started_ok tx (eff : bool) ps now (s' : stub) :
  preserving (if eff then tx else TNoop) ->
  (s_tx s', s_eff s', s_st s') = (tx, eff, init_state (if eff then tx else TNoop) ps now) ->
  stub_ok s' /\ held (s_st s') = [].
Proof.
  intros Hp [= Htx Heff Hst]. destruct (wf_init _ ps now (preserving_pstate_ok _ ps Hp)) as [Hw Hh].
  rewrite Hst. split; [|exact Hh]. apply stub_ok_intro; unfold eff_tx; now rewrite Htx, Heff, ?Hst.
Qed.

(** what is downstream of the cut in front of stub [k]: delivered, or inside the stubs from [k] on. A
    hand-off moves a chunk across one cut; an edit of one stub stays on one side of every cut. What is
    downstream of a cut depends on the stubs downstream of it only, so the stage contract is asked of
    those alone ([ok_from k]): C01/C02 are the cut in front of the first stub, C10 the cut just
    downstream of a dead one. *)
Definition downstream (k : nat) (l : link) : bytes := sink_bytes l ++ flow (skipn k (l_stubs l)).
Definition ok_from (k : nat) (l : link) : Prop := Forall stub_ok (skipn k (l_stubs l)).
(* by conversion [ok_from 0 l] is [link_ok l], and [downstream 0 l ++ pending l] is [stream l] ([stream_cut0]) *)

Lemma downstream_S l k t : nth_error (l_stubs l) k = Some t -> downstream k l = downstream (S k) l ++ seg t.
Proof. intros Hn. unfold downstream. rewrite (skipn_nth _ _ _ Hn). cbn [flow]. now rewrite app_assoc. Qed.

Lemma downstream_upd l k i s : (i < k)%nat -> downstream k (upd_stub l i s) = downstream k l.
Proof. intros H. unfold downstream. cbn [upd_stub l_stubs]. now rewrite skipn_set_nth_lt. Qed.

(** a cut further upstream sees the same, as long as the stubs in between are left alone *)
Lemma downstream_le k i l l' : (k <= i)%nat -> firstn i (l_stubs l') = firstn i (l_stubs l) ->
  downstream i l' = downstream i l -> downstream k l' = downstream k l.
Proof.
  unfold downstream. intros Hk Hf Hd. rewrite (skipn_cut (l_stubs l') k i Hk), (skipn_cut (l_stubs l) k i Hk), !flow_app, Hf, !app_assoc. now f_equal.
Qed.

Lemma stream_cut0 l : stream l = downstream 0 l ++ pending l.
Proof. apply app_assoc. Qed.

Lemma stream_same l l' : downstream 0 l' = downstream 0 l -> reader_of l' = reader_of l -> stream l' = stream l.
Proof. intros Hd [= E1 E2 E3 _]. rewrite !stream_cut0, Hd. unfold pending. now rewrite E1, E2, E3. Qed.

Lemma ok_from_nth k l i s : ok_from k l -> (k <= i)%nat -> nth_error (l_stubs l) i = Some s -> stub_ok s.
Proof. intros H Hk Hn. apply (Forall_nth_error _ _ (i - k) _ H). now rewrite nth_skipn. Qed.

(** a stub updated in place. Upstream of the cut any edit will do; at or downstream of it the stub is
    ok, and the edit has to keep it so and keep its segment *)
Lemma ok_from_upd k l i s' : ok_from k l -> ((k <= i)%nat -> stub_ok s') -> ok_from k (upd_stub l i s').
Proof.
  intros Hok Hs. unfold ok_from. cbn [upd_stub l_stubs]. destruct (le_lt_dec k i) as [Hk|Hk].
  - rewrite skipn_set_nth_ge by exact Hk. apply Forall_set_nth; auto.
  - now rewrite skipn_set_nth_lt.
Qed.

Lemma upd_upstream k l i s' : (i < k)%nat -> ok_from k l ->
  ok_from k (upd_stub l i s') /\ downstream k (upd_stub l i s') = downstream k l.
Proof. intros Hk Hok. split; [apply ok_from_upd; [exact Hok|lia]|now apply downstream_upd]. Qed.

Lemma upd_cut k l i s s' :
  nth_error (l_stubs l) i = Some s -> ok_from k l -> (stub_ok s -> stub_ok s' /\ seg s' = seg s) ->
  ok_from k (upd_stub l i s') /\ downstream k (upd_stub l i s') = downstream k l.
Proof.
  intros Hn Hok Hs. destruct (le_lt_dec k i) as [Hk|Hk]; [|now apply upd_upstream].
  destruct (Hs (ok_from_nth _ _ _ _ Hok Hk Hn)) as [Hs' E]. split; [now apply ok_from_upd|].
  unfold downstream. cbn [upd_stub l_stubs]. rewrite skipn_set_nth_ge by exact Hk.
  now rewrite (flow_set_nth _ _ s) by (rewrite ?nth_skipn; auto).
Qed.

(** [l1] is [l] after the consumer at [j] has taken [c] *)
Definition received (j : nat) (c : chunk) (l l1 : link) : Prop :=
  downstream j l1 = downstream j l ++ cdata c /\ forall i, (i <= j)%nat -> firstn i (l_stubs l1) = firstn i (l_stubs l).

Lemma received_upd l j c t t' :
  nth_error (l_stubs l) j = Some t -> seg t' = seg t ++ cdata c -> received j c l (upd_stub l j t').
Proof.
  intros Hn E. split; [|intros; now apply firstn_set_nth_ge].
  rewrite (downstream_S l j t Hn), (downstream_S _ j t') by (eapply upd_stub_nth; exact Hn).
  now rewrite downstream_upd, E, app_assoc by lia.
Qed.

(** the consumer side of a hand-off, seen from a cut at or upstream of the consumer, and from one downstream of it *)
Lemma offer_cut k l j c l1 :
  offer l j c = Some l1 -> ok_from k l -> (k <= length (l_stubs l))%nat ->
  ok_from k l1 /\ ((k <= j)%nat -> received j c l l1) /\ ((j < k)%nat -> downstream k l1 = downstream k l).
Proof.
  intros Ho Hok Hk.
  assert (Hupd : forall t t', nth_error (l_stubs l) j = Some t -> (stub_ok t -> stub_ok t' /\ seg t' = seg t ++ cdata c) ->
            ok_from k (upd_stub l j t') /\ ((k <= j)%nat -> received j c l (upd_stub l j t')) /\
            ((j < k)%nat -> downstream k (upd_stub l j t') = downstream k l)).
  { intros t t' Hn Ht'. split; [|split].
    - apply ok_from_upd; [exact Hok|]. intros Hj. apply Ht'. eauto using ok_from_nth.
    - intros Hj. apply received_upd with t; [exact Hn|]. apply Ht'. eauto using ok_from_nth.
    - apply downstream_upd. }
  apply offer_offered in Ho. destruct Ho.
  - apply nth_error_None in Hn. destruct (deliver_sink_bytes l c) as [Hb _].
    unfold ok_from, received, downstream. rewrite deliver_sink_stubs, Hb.
    split; [exact Hok|]. split; [|lia]. intros _. rewrite skipn_all2 by exact Hn. now rewrite !app_nil_r.
  - apply (Hupd t); [exact Hn|]. intros Ht. split; [now apply (stub_ok_frame t)|].
    unfold seg. cbn [set_inq s_st s_inq]. now rewrite qbytes_app, app_assoc.
  - rewrite stub_input_eq. apply (Hupd t); [exact Hn|]. intros Ht.
    destruct (input_ok t acc tmr (l_now l) (l_draws l) (Some c) (s_inq t) Ht Hst) as [Ht' E].
    split; [exact Ht'|]. rewrite E. unfold seg. now rewrite Hst, Hq, app_nil_r.
Qed.

(** the producer lets go of the chunk its consumer has taken: seen from the producer's own cut, and so from
    every cut upstream of it, nothing has changed *)
Lemma handoff_downstream k l l1 i s s' c :
  (k <= i)%nat -> nth_error (l_stubs l) i = Some s -> nth_error (l_stubs l1) i = Some s -> received (S i) c l l1 ->
  seg s = cdata c ++ seg s' -> downstream k (upd_stub l1 i s') = downstream k l.
Proof.
  intros Hk Hn Hn1 [Hd Hf] E. apply (downstream_le k i _ _ Hk).
  - cbn [upd_stub l_stubs]. rewrite firstn_set_nth_ge by lia. apply Hf. lia.
  - rewrite (downstream_S l i s Hn), (downstream_S _ i s' (upd_stub_nth _ _ _ _ Hn1)), downstream_upd, Hd, E by lia.
    now rewrite <- app_assoc.
Qed.

(** ... nor from any other cut but the one between the two *)
Lemma handoff_cut k l l1 i s s' c :
  nth_error (l_stubs l) i = Some s -> nth_error (l_stubs l1) i = Some s -> offer l (S i) c = Some l1 ->
  ok_from k l -> (k <= length (l_stubs l))%nat -> S i <> k ->
  (stub_ok s -> stub_ok s' /\ seg s = cdata c ++ seg s') ->
  ok_from k (upd_stub l1 i s') /\ downstream k (upd_stub l1 i s') = downstream k l.
Proof.
  intros Hn Hn1 Ho Hok Hk Hne Hs. destruct (offer_cut k _ _ _ _ Ho Hok Hk) as (Hok1 & Hin & Hab).
  split; [apply ok_from_upd; [exact Hok1|]; intros Hki; apply Hs; eauto using ok_from_nth|].
  destruct (le_lt_dec k i) as [Hki|Hki].
  - apply handoff_downstream with s c; auto. apply Hs. eauto using ok_from_nth.
  - rewrite downstream_upd by exact Hki. apply Hab. lia.
Qed.

Lemma close_cut k l j : ok_from k l ->
  ok_from k (close_downstream l j) /\ downstream k (close_downstream l j) = downstream k l.
Proof.
  intros Hok. unfold close_downstream. destruct (nth_error (l_stubs l) j) as [t|] eqn:Hn; [|now split].
  apply upd_cut with t; auto.
Qed.

(** an action that stays clear of the cut in front of stub [k]: no hand-off across it, no hand-off given up
    downstream of it *)
Definition clear_of (k : nat) (a : act) : Prop :=
  match a with AMove j => S j <> k | ASendTimeout j => (j < k)%nat | AReader => k <> O | _ => True end.

(** the step lemma: such an action leaves what is downstream of the cut as it was *)
Theorem cut_preserves k l a l' :
  sched_step l a = Some l' -> clear_of k a -> (k <= length (l_stubs l))%nat -> ok_from k l ->
  ok_from k l' /\ downstream k l' = downstream k l.
Proof.
  intros H%sched_step_does Hclear Hk Hok. destruct H; cbn [clear_of] in Hclear;
    try now split. (* a tick, and the reader taking or skipping a write, leave stubs and sink alone *)
  - (* a stage takes from its input *) rewrite stub_input_eq. apply upd_cut with s; auto. intros Hs.
    destruct (input_ok s acc tmr (l_now l) (l_draws l) c q Hs Hst) as [Hs' E]. split; [exact Hs'|].
    rewrite E. unfold seg. rewrite Hst.
    destruct c; [now rewrite Hq|]. now destruct Hq as (-> & -> & _).
  - (* a send completes *) rewrite stub_sent_eq. apply handoff_cut with s c; auto.
    intros Hs. exact (sent_ok s c (l_now l1) Hs Hc).
  - (* a stage closes its stub *) destruct (upd_cut k l i s (set_closed (with_st s Exited)) Hn Hok) as [Hok1 E1].
    + intros Hs. split; [now apply (stub_ok_upd s)|]. unfold seg. now rewrite Hst.
    + destruct (close_cut k _ (S i) Hok1) as [Hok2 E2]. split; [exact Hok2|congruence].
  - (* a timer fires *) apply upd_cut with s; auto. intros Hs. pose proof Hs as (_ & _ & Hw & _).
    destruct (on_timer_wf _ (l_now l) _ Hw) as [Hw' Hh]. split; [now apply (stub_ok_upd s)|]. unfold seg. cbn. now rewrite Hh.
  - (* a hand-off is given up *) now apply upd_upstream.
  - (* the reader hands over *) destruct (offer_cut k _ _ _ _ Ho Hok Hk) as (Hok1 & _ & Hab). split; [exact Hok1|apply Hab; lia].
  - (* the reader sees the close *) exact (close_cut k (set_rd l RClosed src [] (l_rx l)) 0 Hok).
Qed.

Lemma link_ok_nth l i s : link_ok l -> nth_error (l_stubs l) i = Some s -> stub_ok s.
Proof. apply Forall_nth_error. Qed.

(** the same for single edits of a whole link, which is what the control actions are made of *)
Lemma upd_preserves l i s s' :
  link_ok l -> nth_error (l_stubs l) i = Some s -> stub_ok s' -> seg s' = seg s ->
  link_ok (upd_stub l i s') /\ stream (upd_stub l i s') = stream l.
Proof.
  intros Hok Hn Hs' E. destruct (upd_cut 0 l i s s' Hn Hok) as [Hok' Hd]; [now split|].
  split; [exact Hok'|now apply stream_same].
Qed.

Lemma close_downstream_preserves l j :
  link_ok l -> link_ok (close_downstream l j) /\ stream (close_downstream l j) = stream l.
Proof.
  intros Hok. destruct (close_cut 0 l j Hok) as [Hok' Hd]. split; [exact Hok'|]. apply stream_same; [exact Hd|].
  unfold close_downstream. now destruct (nth_error _ j).
Qed.

(** the reader's own moves: what it takes from the source stays pending until it is handed over *)
Lemma reader_preserves l l' : sched_step l AReader = Some l' -> link_ok l -> link_ok l' /\ stream l' = stream l.
Proof.
  intros H%sched_step_does Hok. inversion H.
  - (* hands its chunk over *)
    destruct (offer_cut 0 _ _ _ _ Ho Hok (Nat.le_0_l _)) as (Hok1 & Hin & _).
    destruct (Hin (Nat.le_0_l _)) as [Hd _]. split; [exact Hok1|]. injection (offer_reader _ _ _ _ Ho) as _ E2 E3 _.
    rewrite (stream_cut0 l), (stream_cut0 (set_rd _ _ _ _ _)). change (downstream 0 (set_rd l1 _ _ _ _)) with (downstream 0 l1).
    rewrite Hd, <- app_assoc. unfold pending. cbn. now rewrite Hrd, E2, E3.
  - (* takes a piece of the next write *)
    split; [exact Hok|]. unfold stream, pending. cbn. rewrite Hrd.
    rewrite (app_assoc (firstn _ _)), firstn_skipn. destruct Hfrom as [[-> ->]|[-> [t ->]]]; reflexivity.
  - (* skips an empty write *)
    split; [exact Hok|]. unfold stream, pending. cbn. now rewrite Hrd, Hr, Hs.
  - (* sees the close *)
    destruct (close_downstream_preserves (set_rd l RClosed src [] (l_rx l)) 0 Hok) as [Hok1 E].
    split; [exact Hok1|]. rewrite E. unfold stream, pending. cbn. now rewrite Hrd, Hr, Hs.
Qed.

Theorem step_preserves l a l' :
  sched_step l a = Some l' -> (forall i, a <> ASendTimeout i) -> link_ok l -> link_ok l' /\ stream l' = stream l.
Proof.
  intros H Hnt Hok.
  assert (Hstub : clear_of 0 a -> a <> AReader -> link_ok l' /\ stream l' = stream l).
  { intros Hc Ha. destruct (cut_preserves 0 _ _ _ H Hc (Nat.le_0_l _) Hok) as [Hok' Hd].
    split; [exact Hok'|]. apply stream_same; [exact Hd|exact (step_reader _ _ _ H Ha)]. }
  destruct a as [i|i|i| |t]; try (apply Hstub; [exact I || discriminate|discriminate]).
  - now destruct (Hnt i).
  - exact (reader_preserves _ _ H Hok).
Qed.
