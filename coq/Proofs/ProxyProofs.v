(** The lifecycle model of one proxy incarnation ([Model.Proxy]): on every schedule every open socket
    and every entry of the connection table is accounted for, and the stop handshake ends with the
    accept loop gone. C03 (once stop() has returned everything is closed, and stays so) and C15
    (when all links have ended nothing is left) are the two corners of that invariant. *)
From TP Require Import Model.Prelude Extracted Model.Proxy.
Local Open Scope nat_scope.

Lemma in_rm x y l : In x (rm y l) <-> In x l /\ x <> y.
Proof.
  induction l as [|z l IH]; simpl; [tauto|].
  destruct (Nat.eqb_spec y z) as [->|]; simpl; firstorder congruence.
Qed.

Lemma in_rm_all xs : forall l x, In x (rm_all xs l) <-> In x l /\ ~ In x xs.
Proof.
  induction xs as [|y xs IH]; intros l x; simpl; [tauto|].
  specialize (IH (rm y l) x). pose proof (in_rm x y l). firstorder congruence.
Qed.

Lemma in_rm_key k t k' v : In (k', v) (rm_key k t) <-> In (k', v) t /\ k' <> k.
Proof.
  induction t as [|[k0 v0] t IH]; simpl; [tauto|].
  destruct (Nat.eqb_spec k k0) as [->|]; firstorder congruence.
Qed.

Lemma dest_of_even c : dest_of (2 * c) = S (2 * c).
Proof. unfold dest_of. now rewrite Nat.even_mul. Qed.

Lemma dest_of_odd c : dest_of (S (2 * c)) = 2 * c.
Proof. unfold dest_of. now rewrite Nat.even_succ, Nat.odd_mul. Qed.

(** the two sockets of a connection are each other's destination *)
Lemma dest_of_invol k : dest_of (dest_of k) = k.
Proof.
  destruct (Nat.Even_or_Odd k) as [[c ->]|[c ->]]; rewrite ?Nat.add_1_r;
    now rewrite ?dest_of_even, ?dest_of_odd, ?dest_of_even.
Qed.

Lemma dest_of_inj k1 k2 : dest_of k1 = dest_of k2 -> k1 = k2.
Proof. intros H. now rewrite <- (dest_of_invol k1), H, dest_of_invol. Qed.

(** What the accept loop has in hand between two of its steps: sockets it has opened and not yet
    registered, table keys it has registered and not yet started a link for. *)
Definition transient (s : px) : list nat :=
  match x_acc s with AAccepted c => [2 * c] | ADialed c => [2 * c; S (2 * c)] | _ => [] end.

Definition unlinked (s : px) : list nat :=
  match x_acc s with ARegistered c => [2 * c; S (2 * c)] | ALinks1 c => [S (2 * c)] | _ => [] end.

(** Every open socket is in the accept loop's hands, or in the table - under the key of the link that
    will close it - with stop() not yet past closing what the table holds; every table entry belongs
    to a running link or to the connection being linked; stop() proceeds past its wait only after
    Done, Done comes only after the accept loop has ended, and that ends only with the listener closed. *)
Record Inv (s : px) : Prop := {
  i_open : forall x, In x (x_open s) ->
           In x (transient s) \/ x_stop s <> SReturned /\ In (dest_of x, x) (x_table s);
  i_books : forall k v, In (k, v) (x_table s) -> In k (x_links s) \/ In k (unlinked s);
  i_done : x_done s = true -> x_acc s = ADone;
  i_stop : x_stop s = SWaited \/ x_stop s = SReturned -> x_done s = true;
  i_lsn : x_acc s = ADone -> x_listening s = false;
}.

Lemma Inv_init : Inv px_init.
Proof. split; simpl; intuition discriminate. Qed.

Lemma prun_ind (P : px -> Prop) :
  (forall s a s', P s -> pstep s a = Some s' -> P s') ->
  forall l s s', P s -> prun s l = Some s' -> P s'.
Proof.
  intros Hstep. induction l as [|a l IH]; simpl; intros s s' Hs Hr; [now injection Hr as <-|].
  destruct (pstep s a) eqn:Ha; [eauto|discriminate].
Qed.

Local Arguments Nat.mul : simpl never.
Local Opaque writer_deregisters_its_name conn_key_is_dest free_blocker_waits_for_accept_loop.

Section WithFacts.
  Hypothesis Hwait : free_blocker_waits_for_accept_loop = true.
  Hypothesis Hkey : conn_key_is_dest = true.
  Hypothesis Hname : writer_deregisters_its_name = true.

  Lemma step_inv s a s' : Inv s -> pstep s a = Some s' -> Inv s' /\ (x_stop s = SReturned -> x_stop s' = SReturned).
  Proof.
    intros [Io Ib Id Is Il] H. unfold transient, unlinked in *.
    (* the step by cases: one goal per enabled action, its guards as equations, [s'] written out *)
    unfold pstep in H; rewrite Hname in H. destruct a; simpl in H; rewrite ?Hwait, ?Hkey in H;
      repeat match type of H with context [match ?x with _ => _ end] => destruct x eqn:? end;
      try discriminate H; injection H as <-; simpl in *.
    (* each field follows from what it said before the step, the other four put aside, but for the four cases
       below, which are left with [x], [Hx : In x (x_open s')] and [Io] specialised to [x] *)
    all: split; [|congruence]; split; simpl;
      [ trivial; intros x Hx; rewrite ?in_rm, ?in_rm_all in Hx; specialize (Io x); try (clear Ib Id Is Il; intuition congruence)
      | trivial; clear Io Id Is Il; intros k' v Hk; rewrite ?in_rm_key in Hk; rewrite ?in_rm; specialize (Ib k' v); intuition congruence
      | trivial; clear Io Ib Is Il; try (intuition congruence)
      | trivial; clear Io Ib Id Il; intuition congruence
      | trivial; clear Io Ib Id Is; intuition congruence ].
    - (* register: the two sockets in hand enter the table, each under the other's number; the accept loop
         is still running, so stop() has not returned *)
      assert (x_stop s <> SReturned) by (intros R; specialize (Id (Is (or_intror R))); discriminate).
      destruct (Io Hx) as [[<-|[<-|[]]]|[]]; rewrite ?dest_of_even, ?dest_of_odd; auto 6.
    - (* a link ends: the socket it closes is the one registered under its key *)
      rewrite in_rm_key. destruct Hx as [Hx Hn]. destruct (Io Hx) as [|[]]; [now left|right; repeat split; trivial].
      intros <-. now rewrite dest_of_invol in Hn.
    - (* freeBlocker signals Done only after the accept loop has ended *)
      destruct (x_acc s); rewrite ?Bool.andb_false_r in *; congruence.
    - (* stop closes every registered socket *)
      destruct Hx as [Hx Hn]. destruct (Io Hx) as [|[_ Ht]]; [now left|]. destruct Hn. apply (in_map snd _ _ Ht).
  Qed.

  Theorem run_inv l s : prun px_init l = Some s -> Inv s.
  Proof. apply (prun_ind Inv), Inv_init. intros s0 a s1 H0 H. now apply (step_inv s0 a). Qed.

  (** C03: once stop() has returned the listener is closed, the accept loop has ended and every socket is closed *)
  Lemma Inv_down s : Inv s -> x_stop s = SReturned -> x_listening s = false /\ x_acc s = ADone /\ x_open s = [].
  Proof.
    intros [Io _ Id Is Il] Hs. assert (Ha : x_acc s = ADone) by auto. repeat split; auto.
    apply incl_l_nil. intros x Hx. apply Io in Hx. unfold transient in Hx. rewrite Ha in Hx. tauto.
  Qed.

  (** ... and it stays that way, whatever happens next (the only action still enabled is a link ending) *)
  Theorem stays_down l s l' s' :
    prun px_init l = Some s -> x_stop s = SReturned -> prun s l' = Some s' ->
    x_listening s' = false /\ x_acc s' = ADone /\ x_open s' = [].
  Proof.
    intros Hr Hs Hr'. apply run_inv in Hr.
    enough (Inv s' /\ x_stop s' = SReturned) as [Hi Hs'] by now apply Inv_down.
    revert Hr'. apply (prun_ind (fun s => Inv s /\ x_stop s = SReturned)); [|now split].
    intros s1 a s2 [Hi Hs1] Ha. destruct (step_inv _ _ _ Hi Ha). auto.
  Qed.
End WithFacts.

(** C15: whenever every link that was started has ended and the accept loop is not in the middle of setting a
    connection up, the connection table is empty and no socket is open *)
Lemma Inv_nothing_left s :
  Inv s -> x_links s = [] -> (x_acc s = APending \/ x_acc s = ADone) -> x_table s = [] /\ x_open s = [].
Proof.
  intros [Io Ib _ _ _] Hl Ha. unfold transient, unlinked in *.
  assert (Ht : x_table s = []).
  { apply incl_l_nil. intros [k v] Hk. apply Ib in Hk. rewrite Hl in Hk. destruct Ha as [-> | ->] in Hk; tauto. }
  split; [exact Ht|]. apply incl_l_nil. intros x Hx. apply Io in Hx. rewrite Ht in Hx.
  destruct Ha as [-> | ->] in Hx; simpl in Hx; tauto.
Qed.
