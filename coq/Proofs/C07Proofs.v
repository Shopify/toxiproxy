(** C07: does a fresh stage of [tx] panic or diverge on its first chunk? Asked of the inputs that
    killed the pinned code (findings F5a-d) in Properties/C07.v. *)
From TP Require Import Model.Prelude Model.Toxics.

Definition dead_after_input tx (data : bytes) (draws : list Z) : bool :=
  match mode_of (fst (on_input tx None 0 draws (Some (mkChunk data 0)) (Idle 0 None))) with MDead => true | _ => false end.
