(** C09: bandwidth. Per-chunk schedule of the stage (exact, from the extracted expressions) and
    the arithmetic core of the rate bound. *)
From TP Require Import Model.Prelude Extracted Model.Toxics Proofs.GoArith Proofs.StageRun.

Definition rate_ok (rate : Z) : Prop := 0 < rate /\ rate * 100 < two63.
Definition dur (len rate : Z) : Z := (len * 1000000) / rate.     (* floor(len / rate) ms, in ns *)

Lemma dur_range len rate : 0 < rate -> 0 <= len -> 0 <= dur len rate <= len * 1000000.
Proof. intros Hr Hl. unfold dur. split; [apply Z.div_pos; lia|apply Z.div_le_upper_bound; nia]. Qed.

(** the credit bound of the C09 statements as a numeral. With [- two63 / 2] in a hypothesis [lia]
    re-derives the quotient at every call, which is slow: rewrite with this first *)
Lemma credit_bound : - two63 / 2 = - 4611686018427387904.
Proof. reflexivity. Qed.

(** the bounds are what keeps the int64 credit arithmetic from wrapping: a chunk of at most 4 GiB
    ([len * 10^6 < 2^63]) and a credit that owes at most 2^62 ns *)
Lemma bw_sleep_add_exact acc len rate :
  rate_ok rate -> 0 <= len <= 4294967296 -> - two63 / 2 <= acc <= 0 ->
  bw_sleep_add acc len rate = acc + dur len rate.
Proof.
  intros [Hr Hm] Hl Ha. rewrite credit_bound in Ha.
  pose proof (dur_range len rate Hr (proj1 Hl)). unfold bw_sleep_add.
  replace (rate <=? 0) with false by lia.
  rewrite (wrap64_id (len * 1000000)), godiv_div by lia. apply wrap64_id. lia.
Qed.

(** below 2^63/100 the split test is the comparison the documentation speaks of *)
Lemma bw_split_test_exact len rate : rate_ok rate -> bw_split_test len rate = (rate * 100 <? len).
Proof. intros [Hr Hm]. unfold bw_split_test. rewrite maxint_cent, wrap64_id by lia. lia. Qed.

(** a chunk of at most 100*rate bytes, taken at [at_] with (non-positive) credit [acc]: forwarded
    whole at at_ + max(0, acc + floor(len*10^6/rate)); the oversleep is credited to the next chunk *)
Lemma bw_small_chunk_eq rate ps at_ acc (c : chunk) fuel :
  (1 < fuel)%nat -> rate_ok rate -> - two63 / 2 <= acc <= 0 ->
  zlen (cdata c) <= rate * 100 -> zlen (cdata c) <= 4294967296 ->
  let sl := acc + dur (zlen (cdata c)) rate in
  stage_emit (TBandwidth rate) ps at_ fuel None
             (fst (on_input (TBandwidth rate) ps at_ [] (Some c) (Idle acc None))) =
  ([(at_ + Z.max 0 sl, cdata c)], Idle (Z.min 0 sl) None, ps).
Proof.
  intros Hf Hr Ha Hsmall Hlen sl. cbn [on_input fst]. unfold bw_loop.
  pose proof (zlen_nonneg (cdata c)).
  rewrite bw_sleep_add_exact by (assumption || now split). rewrite (bw_split_test_exact _ _ Hr). clear Ha.
  fold sl. replace (rate * 100 <? zlen (cdata c)) with false by lia.
  erewrite stage_emit_wait_send by (exact Hf || reflexivity).
  replace (Z.max at_ (at_ + sl)) with (at_ + Z.max 0 sl) by lia.
  now replace (sl - (at_ + Z.max 0 sl - at_)) with (Z.min 0 sl) by lia.
Qed.

(** arithmetic core of the rate bound: if each chunk k (length L_k, taken at p_k with credit a_k)
    is forwarded at e_k >= p_k + a_k + D_k, the next credit is a_k + D_k - (e_k - p_k) and the next
    chunk is taken no earlier than e_k, then e_k >= p_1 + D_1 + ... + D_k. With D_k =
    floor(L_k * 10^6 / rate) this is: bytes forwarded by time t <= rate * (t - p_1) / 10^6 + one
    nanosecond's worth per chunk - the rate limit with Go's truncating division made explicit. *)
Fixpoint sched_ok (a p : Z) (steps : list (Z * Z * Z)) : Prop :=   (* (D_k, e_k, p_{k+1}) *)
  match steps with
  | [] => True
  | (D, e, p') :: r => p + a + D <= e /\ e <= p' /\ a + D - (e - p) <= 0 /\ sched_ok (a + D - (e - p)) p' r
  end.

Fixpoint last_emit (e0 : Z) (steps : list (Z * Z * Z)) : Z :=
  match steps with [] => e0 | (_, e, _) :: r => last_emit e r end.

Definition sumD (steps : list (Z * Z * Z)) : Z := fold_right (fun s acc => fst (fst s) + acc) 0 steps.

Lemma sched_ok_bound : forall steps a p, a <= 0 -> sched_ok a p steps -> p + a + sumD steps <= last_emit p steps.
Proof.
  induction steps as [|[[D e] p'] r IH]; intros a p Ha Hs; [cbn; lia|].
  destruct Hs as (H1 & H2 & H3 & H4). specialize (IH _ _ H3 H4). cbn [last_emit].
  destruct r as [|[[D2 e2] p2] r']; cbn in *; lia.
Qed.

Lemma dur_bound len rate : 0 < rate -> len * 1000000 - rate < dur len rate * rate <= len * 1000000.
Proof. unfold dur. nia. Qed.

Example c09_nonvacuous :
  let r := stage_emit (TBandwidth 10) None 0 40 None
             (fst (on_input (TBandwidth 10) None 0 [] (Some (mkChunk (repeat 7 2500) 0)) (Idle 0 None))) in
  map (fun e => (fst e, zlen (snd e))) (fst (fst r)) = [(100000000, 1000); (200000000, 1000); (250000000, 500)].
Proof. vm_compute. reflexivity. Qed.
