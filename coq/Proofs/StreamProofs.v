(** Proofs about M1 (ChanWriter/ChanReader): the FIFO invariant over all action sequences. *)
From TP Require Import Model.Prelude Model.Stream Proofs.GoArith.

(** What the first [if] of [ChanReader.Read] must guarantee. [o] = len(out), [n] = bytes copied
    from the carry, [bl] = carry left. The premise [n < o -> bl = 0] is what [copy] guarantees. *)
Definition early_ok (early : Z -> Z -> Z -> bool) : Prop :=
  forall o n bl, 0 <= n <= o -> 0 <= bl -> (n < o -> bl = 0) ->
    (early o n bl = false -> bl = 0) /\ (early o n bl = true -> 0 < n \/ o = 0).

Definition carry_bytes (p : pipe) : bytes := match carry p with Some b => b | None => [] end.
Definition queued (p : pipe) : bytes := concat (map (resolve (caller p)) (queue p)).
Definition is_copy (q : qchunk) : Prop := match q with QCopy _ => True | QRef _ => False end.

(** the reader drops its carry exactly at the end of the stream, and reports EOF only then *)
Record Inv (p : pipe) : Prop := {
  inv_fifo : returned p ++ carry_bytes p ++ queued p = written p;
  inv_copy : Forall is_copy (queue p);
  inv_end  : match carry p with Some _ => eof p = false | None => queue p = [] /\ closed p = true end;
}.

Lemma resolve_copy c1 c2 q : is_copy q -> resolve c1 q = resolve c2 q.
Proof. destruct q; simpl; tauto. Qed.

Lemma queued_caller_irrel c1 c2 qs :
  Forall is_copy qs -> concat (map (resolve c1) qs) = concat (map (resolve c2) qs).
Proof.
  induction 1 as [|q qs Hq _ IH]; simpl; [reflexivity|].
  now rewrite (resolve_copy c1 c2 q Hq), IH.
Qed.

Lemma step_copies early (p p' : pipe) (a : action) :
  step early true p a = Some p' -> Forall is_copy (queue p) -> Forall is_copy (queue p').
Proof.
  intros Hs Hq. destruct a as [d|d| |o intr]; cbn [step] in Hs.
  - destruct (closed p); [discriminate|]. injection Hs as <-. apply Forall_app. split; [exact Hq|repeat constructor].
  - now injection Hs as <-.
  - destruct (closed p); [discriminate|]. now injection Hs as <-.
  - destruct (read _ _ _ _ _) as [b' out e [|]|]; [| |discriminate]; injection Hs as <-; [destruct Hq; [constructor|assumption]|exact Hq].
Qed.

Lemma Inv_init : Inv pipe_init.
Proof. split; cbn; auto. Qed.

Section WithEarly.
  Variable early : Z -> Z -> Z -> bool.
  Hypothesis Hearly : early_ok early.

  (** The ways a [Read] with carry [b] can end: what it returns, what it leaves in the carry, and
      whether it took the head chunk of the channel. Everything below argues from these six cases. *)
  Inductive read_case (b : bytes) (o : nat) (av : avail) (intr : bool) : rres -> Prop :=
  | RC_carry out b' :      (* served from the carry alone *)
      b = out ++ b' -> (length out <= o)%nat -> ((0 < o)%nat -> out <> []) ->
      read_case b o av intr (RRet (Some b') out ENil false)
  | RC_refill d n :        (* the carry is used up and the head chunk taken, as far as it fits *)
      av = VChunk d -> (length b + n <= o)%nat ->
      read_case b o av intr (RRet (Some (skipn n d)) (b ++ firstn n d) ENil true)
  | RC_last :              (* the carry is the end of the stream *)
      av = VClosed -> b <> [] -> (length b <= o)%nat ->
      read_case b o av intr (RRet None b ENil true)
  | RC_intr : intr = true -> b = [] -> read_case b o av intr (RRet (Some []) [] EInterrupted false)
  | RC_eof : av = VClosed -> b = [] -> read_case b o av intr (RRet None [] EEOF true)
  | RC_block : av = VNone -> b = [] -> intr = false -> read_case b o av intr RBlock.

  Lemma read_cases b o av intr : read_case b o av intr (read early (Some b) o av intr).
  Proof.
    unfold read.
    pose proof (firstn_skipn (Nat.min o (length b)) b) as Hsplit.
    pose proof (firstn_length (Nat.min o (length b)) b) as Hlen.
    pose proof (skipn_length (Nat.min o (length b)) b) as Hrest.
    destruct (Hearly (Z.of_nat o) (Z.of_nat (Nat.min o (length b))) (zlen (skipn (Nat.min o (length b)) b)))
      as [Hf Ht]; try (unfold zlen; lia).
    set (n := Nat.min o (length b)) in *. set (out := firstn n b) in *.
    destruct (early _ _ _).
    - apply RC_carry; [now symmetry|lia|]. intros Ho E. rewrite E in Hlen. cbn in Hlen. lia.
    - (* not early: nothing is left in the carry, [out] is all of it *)
      specialize (Hf eq_refl). apply zlen_nil_iff in Hf. rewrite Hf in *. rewrite app_nil_r in Hsplit.
      subst out. rewrite Hsplit in *. assert (Hn : n = length b) by lia. assert (Hle : (length b <= o)%nat) by lia.
      clearbody n. subst n. clear Hf Hsplit Hlen Hrest Ht.
      destruct (0 <? length b)%nat eqn:Hn0.
      + destruct av as [| |d].
        * apply RC_carry; [now rewrite app_nil_r|lia|]. intros _ ->. discriminate.
        * apply RC_last; [reflexivity| |lia]. intros ->. discriminate.
        * now apply RC_refill with (d := d); [|lia].
      + destruct b; [|discriminate]. destruct intr; [now apply RC_intr|].
        destruct av as [| |d]; [now apply RC_block|now apply RC_eof|now apply RC_refill with (d := d); [|lia]].
  Qed.

  Lemma avail_chunk p d : avail_of p = VChunk d -> exists q qs, queue p = q :: qs /\ d = resolve (caller p) q.
  Proof. unfold avail_of. destruct (queue p) as [|q qs]; [now destruct (closed p)|]. intros [= <-]. now exists q, qs. Qed.

  Lemma avail_closed p : avail_of p = VClosed -> queue p = [] /\ closed p = true.
  Proof. unfold avail_of. destruct (queue p); [|discriminate]. now destruct (closed p). Qed.

  Lemma step_inv (p p' : pipe) (a : action) :
    Inv p -> step early true p a = Some p' -> Inv p'.
  Proof.
    intros [Hfifo Hcopy Hend] Hstep. pose proof (step_copies _ _ _ _ Hstep Hcopy) as Hcopy'.
    unfold carry_bytes, queued in *. destruct a as [d|d| |o intr]; cbn [step] in Hstep.
    - (* Write *)
      destruct (closed p); [discriminate|]. injection Hstep as <-.
      split; unfold carry_bytes, queued; cbn; trivial.
      + rewrite map_app, concat_app. cbn. rewrite app_nil_r, (queued_caller_irrel d (caller p) _ Hcopy), <- Hfifo.
        now rewrite !app_assoc.
      + destruct (carry p); [exact Hend|]. destruct Hend. congruence.
    - (* Mutate *)
      injection Hstep as <-. split; cbn; trivial.
      now rewrite (queued_caller_irrel d (caller p) _ Hcopy).
    - (* Close *)
      destruct (closed p); [discriminate|]. injection Hstep as <-.
      split; cbn; trivial. now destruct (carry p).
    - (* Read *)
      destruct (carry p) as [b|].
      2:{ injection Hstep as <-. split; cbn; rewrite ?app_nil_r; auto. }
      assert (Hcl : avail_of p = VClosed -> tl (queue p) = [] /\ closed p = true)
        by (intros H; now destruct (avail_closed _ H) as [-> ->]).
      destruct (read_cases b o (avail_of p) intr) as [out b' Hb _ _|d n Hav _|Hav _ _|_ Hb|Hav Hb|];
        [injection Hstep as <-; split; cbn; auto ..|discriminate].
      + rewrite <- Hfifo, Hb. now rewrite <- !app_assoc.
      + destruct (avail_chunk _ _ Hav) as (q & qs & Hq & ->). rewrite Hq in *. cbn [tl map concat] in *.
        rewrite <- Hfifo, <- !app_assoc. do 2 f_equal. now rewrite app_assoc, firstn_skipn.
      + destruct (avail_closed _ Hav) as [Hq _]. rewrite Hq in *. now rewrite app_nil_r in *.
      + subst b. now rewrite app_nil_r.
      + subst b. destruct (avail_closed _ Hav) as [Hq _]. rewrite Hq in *. now rewrite app_nil_r.
  Qed.

  Theorem run_inv (l : list action) (p p' : pipe) :
    Inv p -> run early true p l = Some p' -> Inv p'.
  Proof.
    revert p; induction l as [|a l IH]; simpl; intros p HI Hrun.
    - now inversion Hrun; subst.
    - destruct (step early true p a) as [p1|] eqn:Hs; [|discriminate].
      eapply IH; [eapply step_inv; eassumption|exact Hrun].
  Qed.

  (** Writes and the ghost [written] agree with the script. *)
  Fixpoint script_written (l : list action) : bytes :=
    match l with
    | [] => []
    | AWrite d :: l' => d ++ script_written l'
    | _ :: l' => script_written l'
    end.

  Lemma run_written (l : list action) : forall p p',
    run early true p l = Some p' -> written p' = written p ++ script_written l.
  Proof.
    induction l as [|a l IH]; simpl; intros p p' Hrun.
    - inversion Hrun; now rewrite app_nil_r.
    - destruct (step early true p a) as [p1|] eqn:Hs; [|discriminate].
      rewrite (IH _ _ Hrun).
      destruct a as [d|d| |o intr]; simpl in Hs.
      + destruct (closed p); [discriminate|]. inversion Hs; simpl. now rewrite app_assoc.
      + inversion Hs; reflexivity.
      + destruct (closed p); [discriminate|]. inversion Hs; reflexivity.
      + destruct (read _ _ _ _ _); [|discriminate]. inversion Hs; reflexivity.
  Qed.

  (** The property, over every action sequence (= every write list, every read-buffer-size list,
      every availability schedule, with the caller free to scribble on its buffer at any time). *)
  Theorem lossless (l : list action) (p : pipe) :
    run early true pipe_init l = Some p ->
    is_prefix (returned p) (script_written l) /\
    returned p ++ carry_bytes p ++ queued p = script_written l /\
    (eof p = true -> returned p = script_written l /\ closed p = true).
  Proof.
    intros Hrun.
    pose proof (run_inv l _ _ Inv_init Hrun) as [Hfifo _ Hend].
    pose proof (run_written l _ _ Hrun) as Hw; simpl in Hw.
    rewrite Hw in Hfifo.
    split; [eexists; symmetry; exact Hfifo|]. split; [exact Hfifo|].
    intros He. unfold carry_bytes, queued in Hfifo. destruct (carry p); [congruence|]. destruct Hend as [Hq Hc].
    split; [|exact Hc]. rewrite Hq in Hfifo. now rewrite app_nil_r in Hfifo.
  Qed.

  (** Per-read clauses: never more than the buffer; progress unless blocked. *)
  Theorem read_bounded_progress (p p' : pipe) (o : nat) (intr : bool) :
    step early true p (ARead o intr) = Some p' ->
    lastn p' <= Z.of_nat o /\
    ((0 < o)%nat -> 0 < lastn p' \/ eof p' = true \/ intr = true \/
                    queue p' = tl (queue p) /\ (queue p <> [] \/ closed p = true)).
  Proof.
    intros Hs. cbn [step] in Hs. destruct (carry p) as [b|].
    2:{ injection Hs as <-. cbn. split; [lia|auto]. }
    destruct (read_cases b o (avail_of p) intr) as [out b' _ Hlen Hne|d n Hav Hlen|Hav _ Hlen|Hi _|_ _|];
      [injection Hs as <-; cbn; unfold zlen; rewrite ?app_length, ?firstn_length; (split; [cbn; lia|intros Ho]) ..|discriminate];
      auto.
    - left. specialize (Hne Ho). destruct out; [easy|cbn; lia].
    - do 3 right. split; [reflexivity|]. left. now destruct (avail_chunk _ _ Hav) as (q & qs & -> & _).
    - do 3 right. split; [reflexivity|]. right. now apply avail_closed.
  Qed.

  (** Once the writer has closed and everything was handed out, the next read reports EOF. *)
  Theorem eof_after_close (p : pipe) (o : nat) :
    closed p = true -> queue p = [] -> carry_bytes p = [] -> (0 < o)%nat ->
    exists p', step early true p (ARead o false) = Some p' /\ eof p' = true /\ lastn p' = 0.
  Proof.
    intros Hcl Hq Hcb Ho. cbn [step]. unfold avail_of, carry_bytes in *. rewrite Hq, Hcl.
    destruct (carry p) as [b|]; [subst b|now eexists].
    destruct (read_cases [] o VClosed false) as [out b' Hb _ Hne| | | | |]; try easy; [|now eexists].
    symmetry in Hb. apply app_eq_nil in Hb as [-> _]. now elim (Hne Ho).
  Qed.
End WithEarly.

(** An interrupted read returns exactly the bytes it copied and empties the carry only when it
    was already empty (the interrupt arm is reached only with nothing left to hand out). *)
Theorem interrupt_no_loss early (Hearly : early_ok early) (b : bytes) (o : nat) av buf' out c :
  read early (Some b) o av true = RRet buf' out EInterrupted c ->
  b = [] /\ out = [] /\ buf' = Some [] /\ c = false.
Proof. intros Hr. destruct (read_cases early Hearly b o av true); now inversion Hr. Qed.

(** The pre-repair test [len(out) <= len(c.buffer)] (finding F1), kept as the regression witness. *)
Definition early_pinned (o n bl : Z) : bool := o <=? bl.
