(** A single stage run in isolation: what it emits from a given local state until it is back at
    its top-level select (or has exited), with its timers firing at their deadlines and an optional
    interrupt arriving in the k-th wait. Used to state the per-toxic stream theorems (C08, C09, C12, and through
    [feed] C10, C11). *)
From TP Require Import Model.Prelude Model.Toxics Proofs.StageContract.

(** emitted pieces are tagged with the time the send was offered *)
Fixpoint stage_emit (tx : toxic) (ps : pstate) (now : Z) (fuel : nat) (intr_at : option nat) (s : lstate)
  : list (Z * bytes) * lstate * pstate :=
  match fuel with
  | O => ([], s, ps)
  | S f =>
    match mode_of s with
    | MSend c | MSendT c _ =>
      let '(s', ps') := on_sent tx ps now s in
      let '(es, sf, psf) := stage_emit tx ps' now f intr_at s' in
      ((now, cdata c) :: es, sf, psf)
    | MSelect false _ (Some dl) =>
      match intr_at with
      | Some O => stage_emit tx ps now f None (on_interrupt now s)
      | Some (S k) => stage_emit tx ps (Z.max now dl) f (Some k) (on_timer tx (Z.max now dl) s)
      | None => stage_emit tx ps (Z.max now dl) f None (on_timer tx (Z.max now dl) s)
      end
    | _ => ([], s, ps)
    end
  end.

Definition emitted (r : list (Z * bytes) * lstate * pstate) : bytes := concat (map snd (fst (fst r))).
Definition final_st (r : list (Z * bytes) * lstate * pstate) : lstate := snd (fst r).

(** the states in which [stage_emit] stops: not in a send, not in a wait with a timer *)
Definition resting (s : lstate) : Prop :=
  match mode_of s with MSelect false _ (Some _) | MSend _ | MSendT _ _ => False | _ => True end.

Lemma stage_emit_rest tx ps now fuel intr s : resting s -> stage_emit tx ps now fuel intr s = ([], s, ps).
Proof.
  unfold resting. destruct fuel; [reflexivity|]. cbn [stage_emit].
  destruct (mode_of s) as [[] ? []| | | | |]; now intros [].
Qed.

Lemma stage_emit_sent tx ps now f intr s (c : chunk) es sf psf :
  sends s = Some c ->
  stage_emit tx (snd (on_sent tx ps now s)) now f intr (fst (on_sent tx ps now s)) = (es, sf, psf) ->
  stage_emit tx ps now (S f) intr s = ((now, cdata c) :: es, sf, psf).
Proof.
  unfold sends. cbn [stage_emit]. destruct (on_sent tx ps now s) as [s' ps']. cbn [fst snd]. intros Hc ->. revert Hc.
  destruct (mode_of s); now intros [= ->].
Qed.

Lemma stage_emit_timer tx ps now f s i dl :
  mode_of s = MSelect false i (Some dl) ->
  stage_emit tx ps now (S f) None s = stage_emit tx ps (Z.max now dl) f None (on_timer tx (Z.max now dl) s).
Proof. intros H. cbn [stage_emit]. now rewrite H. Qed.

(** a wait whose timer hands the chunk on and returns to the top of the loop (latency, bandwidth) *)
Lemma stage_emit_wait_send tx ps now fuel s i dl (c : chunk) a :
  (1 < fuel)%nat -> mode_of s = MSelect false i (Some dl) ->
  on_timer tx (Z.max now dl) s = Send c (KIdle a) ->
  stage_emit tx ps now fuel None s = ([(Z.max now dl, cdata c)], Idle a None, ps).
Proof.
  intros Hf Hm Ht. destruct fuel as [|[|f]]; [lia..|].
  rewrite (stage_emit_timer _ _ _ _ _ _ _ Hm), Ht.
  apply stage_emit_sent; [reflexivity|]. now apply stage_emit_rest.
Qed.

(** Whatever the fuel and wherever the interrupt lands: emitted ++ still held = held at the start.
    (With the final state idle/closing/exited nothing is held, so everything was emitted.) *)
Theorem stage_emit_exact tx fuel : forall ps now intr_at s,
  wf tx s -> pstate_ok tx ps ->
  emitted (stage_emit tx ps now fuel intr_at s) ++ held (final_st (stage_emit tx ps now fuel intr_at s)) = held s
  /\ wf tx (final_st (stage_emit tx ps now fuel intr_at s)).
Proof.
  induction fuel as [|f IH]; intros ps now intr_at s Hwf Hps; [now split|].
  destruct (sends s) as [c|] eqn:Hc.
  - destruct (on_sent_wf tx ps now s c Hwf Hps Hc) as (Hw' & Hps' & ->).
    destruct (IH _ now intr_at _ Hw' Hps') as [<- W].
    destruct (stage_emit _ _ _ f _ _) as [[es sf] psf] eqn:E. rewrite (stage_emit_sent _ _ _ _ _ _ c _ _ _ Hc E).
    split; [symmetry; apply app_assoc|exact W].
  - unfold sends in Hc. cbn [stage_emit].
    destruct (mode_of s) as [[] ? [dl|]| | | | |]; try discriminate; try now split.
    destruct intr_at as [[|k]|];
      [destruct (on_interrupt_wf tx now s Hwf) as [Hw' <-]
      |destruct (on_timer_wf tx (Z.max now dl) s Hwf) as [Hw' <-]..]; now apply IH.
Qed.
