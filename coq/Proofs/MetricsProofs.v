(** C20 on the counter model: a connection's bytes go to exactly the four series labelled with the
    proxy's values at the time the connection STARTED, nothing else moves, and no series decreases. *)
From TP Require Import Model.Prelude Model.Metrics.

Lemma log_sum_app k a b : log_sum k (a ++ b) = log_sum k a + log_sum k b.
Proof. induction a as [|[k' v] a IH]; simpl; lia. Qed.

Lemma labels_eqb_refl l : labels_eqb l l = true.
Proof. destruct l as [[a b] c]. simpl. lia. Qed.

Lemma series_eqb_refl k : series_eqb k k = true.
Proof. destruct k as [[[] []] l]; apply labels_eqb_refl. Qed.

Lemma labels_eqb_eq a b : labels_eqb a b = true -> a = b.
Proof. destruct a as [[a1 a2] a3], b as [[b1 b2] b3]. simpl. intros H. f_equal; [f_equal|]; lia. Qed.

Lemma series_eqb_eq a b : series_eqb a b = true -> a = b.
Proof.
  destruct a as [[[] []] l1], b as [[[] []] l2]; simpl; intros H; try discriminate; now rewrite (labels_eqb_eq l1 l2 H).
Qed.

Lemma zassoc_zremove {A} (k k' : Z) (l : list (Z * A)) :
  zassoc k (zremove k' l) = if k =? k' then None else zassoc k l.
Proof.
  induction l as [|[a v] l IH]; cbn [zremove zassoc]; [now destruct (k =? k')|].
  destruct (Z.eqb_spec k' a); cbn [zassoc]; rewrite IH; destruct (Z.eqb_spec k a), (Z.eqb_spec k k'); congruence.
Qed.

(** What an event adds to a series: the four counts of a connection that ends go to the series that
    carry the labels it started with, by direction and by received / sent. *)
Definition added (s : mstate) (e : mev) (k : series) : Z :=
  match e with
  | MEnd c urx utx drx dtx =>
    match zassoc c (m_open s) with
    | Some lab =>
      let '(sent, down, l) := k in
      if labels_eqb l lab then if down then (if sent then dtx else drx) else (if sent then utx else urx) else 0
    | None => 0
    end
  | _ => 0
  end.

Theorem counter_step s e k : counter (m_step s e) k = counter s k + added s e k.
Proof.
  unfold counter. destruct e as [p l0 u0|c p|c urx utx drx dtx|]; cbn [m_step added m_log]; try lia.
  - destruct (zassoc p (m_cfg s)) as [[l u]|]; cbn [m_log]; lia.
  - destruct (zassoc c (m_open s)) as [lab|]; [|lia]. cbn [m_log]. rewrite log_sum_app.
    destruct k as [[sent down] l]. cbn [log_sum series_eqb]. destruct (labels_eqb l lab), sent, down; cbn; lia.
Qed.

Definition ev_nonneg (e : mev) : Prop :=
  match e with MEnd _ a b c d => 0 <= a /\ 0 <= b /\ 0 <= c /\ 0 <= d | _ => True end.

Lemma added_nonneg s e k : ev_nonneg e -> 0 <= added s e k.
Proof.
  destruct e as [| |c urx utx drx dtx|]; cbn; try lia. destruct (zassoc c (m_open s)) as [lab|]; [|lia].
  destruct k as [[[] []] l]; destruct (labels_eqb l lab); lia.
Qed.
