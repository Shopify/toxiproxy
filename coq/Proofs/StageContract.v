(** M3: the stage contract. Every built-in toxic, for every attribute value (the guard [attrs_ok]
    holds of all of them: [attrs_ok_all]), is proved to respect: what it has read and not yet written
    ([held]) changes only by appending on input (all of the chunk / a prefix / nothing, by class) and
    by removing the chunk being sent when a send completes; it never panics or diverges; and it holds
    nothing when it is idle, closing or has exited (CREATING_TOXICS.md's "write back what you hold
    before you return"). *)
From TP Require Import Model.Prelude Extracted Model.Toxics Proofs.GoArith Proofs.SlicerProofs.

(** the toxics that neither drop, truncate nor close: what C01/C02 call data-preserving *)
Definition preserving (tx : toxic) : Prop :=
  match tx with
  | TNoop | TLatency _ _ | TBandwidth _ | TSlicer _ _ _ | TSlowClose _ => True
  | _ => False
  end.

(** what the stage transitions need of the attributes in order not to panic or diverge. With the
    jitter clamp, the rate test and the slicer clamp of the code (findings F5a-c) this holds of EVERY
    attribute value: [attrs_ok_all] below. *)
Definition attrs_ok (tx : toxic) : Prop :=
  match tx with
  | TLatency _ jit => latency_jitter_guard jit = true -> 0 < latency_rand_n jit
  | _ => True
  end.

Theorem attrs_ok_all tx : attrs_ok tx.
Proof.
  destruct tx; simpl; try exact I.
  unfold latency_jitter_guard, latency_rand_n. rewrite maxint_half.
  destruct (4611686018427387903 <? jit) eqn:E; intros H.
  - vm_compute. reflexivity.
  - rewrite wrap64_id; lia.
Qed.

Definition slicer_cov (c : chunk) (rest : list Z) (o tot : Z) : Prop :=
  covers rest o tot /\ zlen (cdata c) = tot - o /\ 0 <= o.

(** well-formed local states of each toxic (the reachable shapes) *)
Definition wf (tx : toxic) (s : lstate) : Prop :=
  match s with
  | Idle _ None | Closing | Exited => True
  | Idle _ (Some _) => match tx with TTimeout _ => True | _ => False end
  | Send c k =>
    match tx, k with
    | TNoop, KIdle _ | TSlowClose _, KIdle _ => True
    | TLatency _ _, KIdle _ | TLatency _ _, KExit => True
    | TBandwidth _, KIdle _ | TBandwidth _, KBwLoop _ _ => True
    | TSlicer _ _ _, KSlNext c' rest o tot => slicer_cov c' rest o tot
    | TSlicer _ _ _, KExit => True
    | TLimitData _, KLimit => True
    | _, _ => False
    end
  | SendT _ _ => match tx with TBandwidth _ => True | _ => False end
  | LatWait _ _ _ => match tx with TLatency _ _ => True | _ => False end
  | BwInst p r _ _ =>
    match tx with
    | TBandwidth rate => slice_ok 0 (bw_instalment_bytes r) (zlen (cdata p)) = true /\
                         (bw_cut_uses_tested_rate = false -> r = rate)
    | _ => False
    end
  | BwFinal _ _ _ _ => match tx with TBandwidth _ => True | _ => False end
  | SlWait c rest o tot _ => match tx with TSlicer _ _ _ => slicer_cov c rest o tot | _ => False end
  | ScWait _ => match tx with TSlowClose _ => True | _ => False end
  | RpWait _ => match tx with TResetPeer _ => True | _ => False end
  | Panicked _ | Diverged => False
  end.

Definition pstate_ok (tx : toxic) (ps : pstate) : Prop :=
  match tx with TLimitData _ => exists k, ps = Some k | _ => True end.

(** what a stage may keep of an input chunk, by class *)
Definition keeps (tx : toxic) (input kept : bytes) : Prop :=
  match tx with
  | TNoop | TLatency _ _ | TBandwidth _ | TSlicer _ _ _ | TSlowClose _ => kept = input
  | TLimitData _ => is_prefix kept input
  | TTimeout _ | TResetPeer _ => kept = []
  end.

(** States that arise without interrupts (no reconfiguration): no flush-on-exit sends. *)
Definition static_st (s : lstate) : Prop :=
  match s with
  | SendT _ _ => False
  | Send _ KExit => False
  | _ => True
  end.

(** where the transitions land. Apart from constructors applied to their arguments, a
    transition's result is one of [bw_loop], [slicer_next], [limit_after]: what an invariant of
    the stage has to be checked on. *)
Lemma bw_loop_wf rate (p : chunk) sl now :
  wf (TBandwidth rate) (bw_loop rate p sl now) /\ held (bw_loop rate p sl now) = cdata p.
Proof.
  unfold bw_loop. destruct (bw_split_test (zlen (cdata p)) rate) eqn:E; [|now split].
  split; [|reflexivity]. split; [|reflexivity].
  unfold bw_split_test in E. rewrite maxint_cent in E. unfold bw_instalment_bytes, slice_ok.
  rewrite wrap64_id in * by lia. lia.
Qed.

(** under [slicer_cov] the piece loop has nothing left, or cuts off the piece [lo, hi) and goes on behind it *)
Lemma slicer_next_cov (c : chunk) rest o tot :
  slicer_cov c rest o tot ->
  match rest with
  | [] => cdata c = []
  | [_] => False
  | lo :: hi :: rest' =>
    let n := Z.to_nat (hi - lo) in
    let c' := mkChunk (skipn n (cdata c)) (cts c) in
    slicer_next c rest o tot = Send (mkChunk (firstn n (cdata c)) (cts c)) (KSlNext c' rest' hi tot) /\
    slicer_cov c' rest' hi tot /\ zlen (firstn n (cdata c)) = hi - lo
  end.
Proof.
  intros (Hc & Hlen & Ho). destruct rest as [|lo [|hi rest']]; cbn [covers] in Hc.
  - apply zlen_nil_iff. lia.
  - exact Hc.
  - destruct Hc as (-> & Hle & Hc). pose proof (covers_le _ _ _ Hc). cbn [slicer_next].
    replace ((o =? o) && slice_ok o hi tot) with true by (unfold slice_ok; lia).
    split; [reflexivity|]. unfold slicer_cov. cbn [cdata]. rewrite zlen_skipn, zlen_firstn. repeat split; trivial; lia.
Qed.

Lemma slicer_next_wf avg var delay (c : chunk) rest o tot :
  slicer_cov c rest o tot ->
  wf (TSlicer avg var delay) (slicer_next c rest o tot) /\ held (slicer_next c rest o tot) = cdata c.
Proof.
  intros H. apply slicer_next_cov in H. destruct rest as [|lo [|hi rest']]; [now rewrite H|contradiction|].
  destruct H as (-> & H & _). split; [exact H|apply firstn_skipn].
Qed.

Lemma limit_after_wf nb k : wf (TLimitData nb) (limit_after nb k) /\ held (limit_after nb k) = [].
Proof. unfold limit_after. now destruct (limit_close_test _). Qed.

Lemma static_bw_loop rate p sl now : static_st (bw_loop rate p sl now).
Proof. unfold bw_loop. now destruct (bw_split_test _ _). Qed.

Lemma static_slicer_next c rest o tot : static_st (slicer_next c rest o tot).
Proof. unfold slicer_next. destruct rest as [|lo [|hi r]]; try exact I. now destruct (_ && _). Qed.

Lemma static_limit_after nb k : static_st (limit_after nb k).
Proof. unfold limit_after. now destruct (limit_close_test _). Qed.

(** only limit_data, which is not data-preserving, asks anything of the stub's persistent state *)
Lemma preserving_pstate_ok tx ps : preserving tx -> pstate_ok tx ps.
Proof. now destruct tx. Qed.

Lemma keeps_preserving tx input kept : preserving tx -> keeps tx input kept -> kept = input.
Proof. now destruct tx. Qed.

Lemma wf_init tx ps now : pstate_ok tx ps -> wf tx (init_state tx ps now) /\ held (init_state tx ps now) = [].
Proof.
  destruct tx; cbn; intros H; try now split.
  - unfold timeout_arm. now destruct (timeout_positive t).
  - now destruct H as [k ->].
Qed.

Lemma on_input_wf tx ps now draws (c : option chunk) acc tmr :
  wf tx (Idle acc tmr) ->
  let s' := fst (on_input tx ps now draws c (Idle acc tmr)) in
  wf tx s' /\
  match c with
  | Some ch => keeps tx (cdata ch) (held s')
  | None => held s' = []
  end.
Proof.
  intros Hwf. destruct c as [ch|]; [|destruct tx; now split].
  destruct tx; cbn [on_input keeps fst].
  1, 5: split; [exact I|apply app_nil_r].
  - pose proof (attrs_ok_all (TLatency lat jit)) as Hok. cbn [attrs_ok] in Hok. unfold latency_delay.
    destruct (latency_jitter_guard jit); [|now split].
    replace (latency_rand_n jit <=? 0) with false by (specialize (Hok eq_refl); lia). now destruct draws.
  - apply bw_loop_wf.
  - destruct (slicer_chunk_total (S (Z.to_nat (zlen (cdata ch)))) avg var 0 (zlen (cdata ch)) draws
                (zlen_nonneg _) ltac:(lia)) as (os & d2 & -> & Hcov & _).
    apply slicer_next_wf. split; [exact Hcov|lia].
  - split; [|reflexivity]. destruct timeout_rearms; [unfold timeout_arm; now destruct (timeout_positive t)|exact Hwf].
  - now split.
  - set (c' := if _ <? _ then _ else ch).
    assert (Hpre : is_prefix (cdata c') (cdata ch)).
    { subst c'. destruct (_ <? _).
      - eexists. symmetry. apply slice_to_from.
      - exists []. now rewrite app_nil_r. }
    destruct (0 <? zlen (cdata c')).
    + split; [exact I|]. cbn. now rewrite app_nil_r.
    + cbn [fst]. destruct (limit_after_wf nbytes (match ps with Some k => k | None => 0 end)) as [W ->].
      split; [exact W|]. now exists (cdata ch).
Qed.

Lemma on_timer_wf tx now s :
  wf tx s -> wf tx (on_timer tx now s) /\ held (on_timer tx now s) = held s.
Proof.
  intros Hwf. unfold on_timer.
  (* states without a timer ([Hwf]) or whose timer ends in [Closing] ([I]); where it fails, [now split] searches long *)
  destruct s; cbn [on_timer_gen]; try (split; [exact Hwf || exact I|reflexivity]);
    [destruct tmr; (split; [exact Hwf || exact I|reflexivity])|destruct tx; try contradiction..].
  - (* LatWait *) split; [exact I|apply app_nil_r].
  - (* BwInst: the cut is made with the rate the loop test read *) destruct Hwf as [Hs Hr].
    replace (if bw_cut_uses_tested_rate then r else rate) with r by (destruct bw_cut_uses_tested_rate; auto).
    rewrite Hs. split; [exact I|apply slice_to_from].
  - (* BwFinal *) split; [exact I|apply app_nil_r].
  - (* SlWait *) apply slicer_next_wf, Hwf.
Qed.

Definition sends (s : lstate) : option chunk :=
  match mode_of s with MSend c | MSendT c _ => Some c | _ => None end.

Lemma on_sent_wf tx ps now s (c : chunk) :
  wf tx s -> pstate_ok tx ps -> sends s = Some c ->
  let r := on_sent tx ps now s in
  wf tx (fst r) /\ pstate_ok tx (snd r) /\ held s = cdata c ++ held (fst r).
Proof.
  intros Hwf Hps Hc.
  destruct s as [|c0 k|c0 dl| | | | | | | | | |]; try discriminate; injection Hc as ->;
    [|cbn; rewrite app_nil_r; now split].
  destruct k; [now split..| | |]; destruct tx; try contradiction; cbn [on_sent fst snd held after_held].
  - (* KBwLoop *) destruct (bw_loop_wf rate p sl now) as [W ->]. now split.
  - (* KSlNext *) now split.
  - (* KLimit *) destruct Hps as [k ->]. cbn [fst snd]. destruct (limit_after_wf nbytes (k + zlen (cdata c))) as [W ->].
    split; [exact W|]. split; [now eexists|reflexivity].
Qed.

Theorem on_sent_timed_contract tx ps now (c : chunk) dl :
  on_sent tx ps now (SendT c dl) = (Exited, ps) /\ held (SendT c dl) = cdata c.
Proof. split; reflexivity. Qed.

Theorem on_interrupt_wf tx now s :
  wf tx s ->
  wf tx (on_interrupt now s) /\ held (on_interrupt now s) = held s.
Proof.
  intros Hwf. destruct s; try (now split); destruct tx; try contradiction; cbn; rewrite ?app_nil_r; now split.
Qed.

Theorem wf_not_dead tx s : wf tx s -> mode_of s <> MDead.
Proof. destruct s; try discriminate; contradiction. Qed.

Theorem send_mode_held s c :
  mode_of s = MSend c -> exists rest, held s = cdata c ++ rest.
Proof. destruct s; try discriminate. intros [= ->]. now eexists. Qed.

(** no transition but the interrupt creates a flush-on-exit send *)
Lemma static_init tx ps now : static_st (init_state tx ps now).
Proof. destruct tx; try exact I. now destruct ps. Qed.

Lemma static_on_input tx ps now draws c s : static_st s -> static_st (fst (on_input tx ps now draws c s)).
Proof.
  destruct s; try (intros H; exact H). intros _.
  destruct c as [ch|]; [|now destruct tx]. destruct tx; cbn [on_input fst static_st]; trivial.
  - now destruct (latency_delay lat jit draws) as [[d|] ds].
  - apply static_bw_loop.
  - destruct (slicer_chunk _ _ _ _ _ _); [apply static_slicer_next|exact I..].
  - destruct (0 <? _); [exact I|apply static_limit_after].
Qed.

Lemma static_on_timer tx now s : static_st s -> static_st (on_timer tx now s).
Proof.
  unfold on_timer.
  destruct s; try (intros H; exact H); intros _; cbn [on_timer_gen].
  - now destruct tmr.
  - destruct tx; try exact I. now destruct (slice_ok _ _ _).
  - apply static_slicer_next.
Qed.

Lemma static_on_sent tx ps now s : static_st s -> static_st (fst (on_sent tx ps now s)).
Proof.
  destruct s; try (intros H; exact H); intros _; [|exact I].
  destruct k; try exact I; destruct tx; try exact I; [apply static_bw_loop|].
  destruct ps; [apply static_limit_after|exact I].
Qed.
