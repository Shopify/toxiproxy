(** A dead stub is a wall (C10: removing a timeout toxic closes the connection instead of resuming
    the stream; also the shape of finding F7). A stub whose stage has returned and that is closed
    takes no action of its own under any schedule ([wall_silent_data]; for the control actions:
    C10_wall_is_silent_ctl), stays that way for ever,
    and therefore never hands anything to its consumer: in the positional pipeline the only
    hand-offs to position i+1 are stub i's own send ([stub_move]) and RemoveToxic's flush of stub i
    ([CForward i]), and both are disabled. What its producer hands to it piles up in its input
    buffer (capacity [s_cap]) and then blocks the producer. *)
From TP Require Import Model.Prelude Model.Toxics Model.Timed Model.Reconf Proofs.LinkSteps Proofs.LinkFrame Proofs.LinkInv.

Definition dead (s : stub) : bool := is_exited s && s_closed s.
Definition wall (l : link) (i : nat) : Prop := exists s, nth_error (l_stubs l) i = Some s /\ dead s = true.

Lemma dead_exited s : dead s = true -> s_st s = Exited /\ s_closed s = true.
Proof.
  unfold dead, is_exited. destruct (s_st s); try discriminate. auto.
Qed.

Theorem wall_silent_data l i : wall l i ->
  sched_step l (AMove i) = None /\ sched_step l (ATimer i) = None /\ sched_step l (ASendTimeout i) = None.
Proof.
  intros (s & Hn & Hd). destruct (dead_exited s Hd) as [Hst Hc].
  cbn [sched_step]. unfold stub_move, stub_timer, stub_send_timeout. rewrite Hn, Hst. cbn [mode_of]. auto.
Qed.

Lemma wall_upd l i j s s' :
  nth_error (l_stubs l) j = Some s -> (dead s = true -> dead s' = true) -> wall l i -> wall (upd_stub l j s') i.
Proof.
  intros Hn Hmono (t & Ht & Hd). destruct (Nat.eq_dec j i) as [->|Hne].
  - exists s'. split; [now apply upd_stub_nth with s|]. apply Hmono. congruence.
  - exists t. now rewrite upd_stub_other.
Qed.

Lemma live_not_dead s : s_st s <> Exited -> dead s = false.
Proof. unfold dead, is_exited. now destruct (s_st s). Qed.

Lemma wall_upd_live l i j s s' :
  nth_error (l_stubs l) j = Some s -> s_st s <> Exited -> wall l i -> wall (upd_stub l j s') i.
Proof. intros Hn Hl. apply wall_upd with s; [exact Hn|]. now rewrite live_not_dead. Qed.

Lemma wall_offer l i j c l1 : offer l j c = Some l1 -> wall l i -> wall l1 i.
Proof.
  intros H%offer_offered. destruct H.
  - unfold wall. now rewrite deliver_sink_stubs.
  - now apply wall_upd with t.
  - rewrite stub_input_eq. apply (wall_upd_live l i j t); [exact Hn|congruence].
Qed.

Lemma wall_close_downstream l i j : wall l i -> wall (close_downstream l j) i.
Proof.
  unfold close_downstream. destruct (nth_error (l_stubs l) j) as [t|] eqn:Hn; [now apply wall_upd with t|auto].
Qed.

Theorem wall_step l a l' w : sched_step l a = Some l' -> wall l w -> wall l' w.
Proof.
  intros H%sched_step_does. destruct H; auto using wall_close_downstream.
  - (* a stage takes from its input *) rewrite stub_input_eq. apply (wall_upd_live l w i s); [exact Hn|congruence].
  - (* a send completes *) intros Hw. rewrite stub_sent_eq. eapply wall_upd_live; eauto using wall_offer, sends_live.
  - (* a stage closes its stub *) intros Hw. apply wall_close_downstream, (wall_upd_live l w i s); auto. now rewrite Hst.
  - (* a timer fires *) apply (wall_upd_live l w i s); [exact Hn|]. intros E. now rewrite E in Hm.
  - (* a hand-off is given up *) apply (wall_upd_live l w i s); [exact Hn|]. now rewrite Hst.
  - (* the reader hands over *) exact (wall_offer _ _ _ _ _ Ho).
Qed.

Theorem wall_run sigma l l' i : sched_run l sigma = Some l' -> wall l i -> wall l' i.
Proof. apply (sched_run_ind (fun l => wall l i)). intros x a x' Hw Hs. exact (wall_step _ _ _ _ Hs Hw). Qed.

Lemma close_downstream_seen l j :
  match nth_error (l_stubs (close_downstream l j)) j with
  | Some t => s_in_closed t = true
  | None => l_sink_closed (close_downstream l j) <> None
  end.
Proof.
  unfold close_downstream. destruct (nth_error (l_stubs l) j) as [t|] eqn:Hn.
  - now rewrite (upd_stub_nth _ _ _ _ Hn).
  - cbn [l_stubs l_sink_closed]. now rewrite Hn.
Qed.

Lemma close_downstream_sink l j : sink_bytes (close_downstream l j) = sink_bytes l.
Proof. unfold close_downstream. now destruct (nth_error (l_stubs l) j). Qed.

(** the removal of a timeout toxic: interrupt, then Cleanup closes the stub *)
Theorem sever_makes_wall l i l' :
  ctl_step l (CSever i) = Some l' ->
  wall l' i /\
  match nth_error (l_stubs l') (S i) with
  | Some t => s_in_closed t = true                  (* the next stage sees end-of-stream *)
  | None => l_sink_closed l' <> None                (* ... or the writer does: the connection is closed *)
  end /\
  sink_bytes l' = sink_bytes l.                     (* and nothing is delivered by the removal itself *)
Proof.
  intros H%ctl_step_does. inversion H. destruct Hp as [Hex _].
  split; [|split; [apply close_downstream_seen|now rewrite close_downstream_sink]].
  apply wall_close_downstream. eexists. split; [exact (upd_stub_nth _ _ _ _ Hn)|]. unfold dead, is_exited. cbn. now rewrite Hex.
Qed.

(** a timeout stage always listens to the interrupt, whatever it is doing (it is never in a send) *)
Theorem timeout_interruptible acc tmr : mode_of (Idle acc tmr) = MSelect true true tmr.
Proof. reflexivity. Qed.

Theorem timeout_interrupt_exits now acc tmr : on_interrupt now (Idle acc tmr) = Exited.
Proof. reflexivity. Qed.

Lemma parked_not_dead s : parked s -> dead s = false.
Proof. intros [_ Hc]. unfold dead. now rewrite Hc, Bool.andb_false_r. Qed.

Lemma wall_insert l i j st : wall l i ->
  if (j <? i)%nat then wall (insert_stub l j st) (S i) else wall (insert_stub l j st) i.
Proof.
  intros (t & Ht & Hd). assert (Hi : (i < length (l_stubs l))%nat) by (apply nth_error_Some; congruence).
  destruct (Nat.ltb_spec j i); exists t; (split; [|exact Hd]); cbn [insert_stub set_stubs l_stubs];
    [rewrite nth_insert_ge|rewrite nth_insert_lt]; auto; lia.
Qed.

(** permanence under the control actions too (a splice upstream of the wall shifts its index) *)
Theorem wall_ctl l a l' w : ctl_step l a = Some l' -> wall l w ->
  match a with
  | CDelete j => if (j <? w)%nat then wall l' (w - 1) else wall l' w
  | CInsertAfter j _ _ | CInsertDead j _ => if (j <? w)%nat then wall l' (S w) else wall l' w
  | _ => wall l' w
  end.
Proof.
  intros H%ctl_step_does. destruct H.
  - (* CInterrupt *) apply (wall_upd_live l w i s); [exact Hn|]. intros E. unfold listens_interrupt in Hl. now rewrite E in Hl.
  - (* CRestart *) apply wall_upd with s; [exact Hn|]. now rewrite parked_not_dead.
  - (* CAppend *) intros (s & Hs & Hd). exists s. cbn. split; [|exact Hd]. rewrite nth_error_app1; [exact Hs|]. apply nth_error_Some. congruence.
  - (* CForward *) intros Hw. apply wall_upd with s; eauto using wall_offer.
  - (* CForwardDrop *) now apply wall_upd with s.
  - (* CDelete *) intros (t & Ht & Hd). unfold wall. cbn [set_stubs l_stubs].
    destruct (Nat.ltb_spec i w) as [Hlt|Hge]; exists t.
    + now rewrite nth_remove_nth_lt.
    + rewrite nth_remove_nth_gt; [auto|]. destruct (Nat.eq_dec w i) as [->|]; [|lia].
      rewrite Hn in Ht. injection Ht as <-. now rewrite parked_not_dead in Hd.
  - (* CSever *) intros Hw. apply wall_close_downstream, wall_upd with s; auto. now rewrite parked_not_dead.
  - (* CSetTx *) now apply wall_upd with s.
  - (* CFlushRecv *) intros Hw. rewrite stub_sent_eq. apply (wall_upd_live _ w j sp).
    + rewrite upd_stub_other by lia. exact Hnp.
    + exact (sends_live _ _ Hc).
    + now apply wall_upd with s.
  - (* CCloseEnd *) intros Hw. apply wall_close_downstream, wall_upd with s; auto. now rewrite parked_not_dead.
  - (* CInsertAfter *) apply wall_insert.
  - (* CInsertDead *) apply wall_insert.
Qed.

(** the whole removal: interrupt + Cleanup, from any live state of the timeout stage *)
Theorem timeout_removal l i s acc tmr :
  nth_error (l_stubs l) i = Some s -> s_st s = Idle acc tmr -> s_closed s = false ->
  exists l1 l2,
    ctl_step l (CInterrupt i) = Some l1 /\ ctl_step l1 (CSever i) = Some l2 /\
    wall l2 i /\ sink_bytes l2 = sink_bytes l /\
    match nth_error (l_stubs l2) (S i) with
    | Some t => s_in_closed t = true
    | None => l_sink_closed l2 <> None
    end /\
    (forall sigma l3, sched_run l2 sigma = Some l3 -> wall l3 i).
Proof.
  intros Hn Hst Hcl. set (l1 := upd_stub l i (with_st s Exited)).
  assert (H1 : ctl_step l (CInterrupt i) = Some l1) by (cbn [ctl_step]; unfold listens_interrupt; now rewrite Hn, Hst).
  destruct (ctl_step l1 (CSever i)) as [l2|] eqn:H2.
  - exists l1, l2. destruct (sever_makes_wall _ _ _ H2) as (Hw & Hc & Hb). repeat (split; [assumption|]).
    intros sigma l3 Hr. exact (wall_run _ _ _ _ Hr Hw).
  - unfold l1 in H2. cbn [ctl_step] in H2. rewrite (upd_stub_nth _ _ _ _ Hn) in H2. cbn in H2. now rewrite Hcl in H2.
Qed.

(** who can write to the receiver: the sink is the cut behind the last stub, so only the LAST stub's own
    send crosses it (and the reader's, on a link without stubs); every other action of every schedule leaves
    the delivered bytes untouched. Hence once the last stub is dead (a removed timeout toxic) nothing is
    delivered any more: the stream is not resumed *)
Lemma downstream_sink l : downstream (length (l_stubs l)) l = sink_bytes l.
Proof. unfold downstream. now rewrite skipn_all, app_nil_r. Qed.

Theorem sink_writer l a l' :
  sched_step l a = Some l' ->
  sink_bytes l' = sink_bytes l \/
  (exists j, a = AMove j /\ S j = length (l_stubs l)) \/ (a = AReader /\ l_stubs l = []).
Proof.
  intros H.
  assert (Hclear : clear_of (length (l_stubs l)) a -> sink_bytes l' = sink_bytes l).
  { intros Hc. destruct (cut_preserves _ l a l' H Hc (le_n _)) as [_ Hd]; [unfold ok_from; now rewrite skipn_all|].
    rewrite <- (step_length _ _ _ H) in Hd at 1. now rewrite !downstream_sink in Hd. }
  destruct a as [j|j|j| |t]; cbn [clear_of] in Hclear; auto.
  - destruct (Nat.eq_dec (S j) (length (l_stubs l))); eauto.
  - (* a give-up is the move of a stub that is there *)
    left. apply Hclear. cbn in H. unfold stub_send_timeout in H. apply nth_error_Some. now destruct (nth_error (l_stubs l) j).
  - destruct (l_stubs l); [auto|left; now apply Hclear].
Qed.

(** once the last stub is dead, the receiver gets nothing more - on every schedule *)
Theorem dead_last_stub_freezes_sink sigma l l' i :
  wall l i -> S i = length (l_stubs l) -> sched_run l sigma = Some l' ->
  sink_bytes l' = sink_bytes l /\ wall l' i /\ S i = length (l_stubs l').
Proof.
  intros Hw Hlast Hrun.
  apply (sched_run_ind (fun x => sink_bytes x = sink_bytes l /\ wall x i /\ S i = length (l_stubs x))) with sigma l; auto.
  clear. intros x a x' (E & Hw & Hlast) Hs. rewrite (step_length _ _ _ Hs). split; [|split; [exact (wall_step _ _ _ _ Hs Hw)|exact Hlast]].
  rewrite <- E. destruct (sink_writer _ _ _ Hs) as [E'|[(j & -> & Hj)|[_ Hnil]]]; [exact E'| |].
  - assert (j = i) by lia. subst j. destruct (wall_silent_data x i Hw) as [Hm _]. rewrite Hm in Hs. discriminate.
  - rewrite Hnil in Hlast. discriminate.
Qed.
