(** What every state reached from the start of a link of data-preserving toxics satisfies
    ([reachable_invariants]: the premises of [Progress.no_deadlock] and the stream equation, from which
    the C01 and C15 theorems follow), and a link that runs to completion. *)
From TP Require Import Model.Prelude Model.Toxics Model.Timed Proofs.LinkInv Proofs.LinkStatic
     Proofs.C01Proofs Proofs.Progress.

Lemma reachable_invariants chain src draws sd sigma l :
  chain_ok chain -> sched_run (link_init_slow chain src draws sd) sigma = Some l ->
  link_ok l /\ static_link l /\ closure_inv l /\ stream l = src_bytes src.
Proof.
  intros Hc Hrun. destruct (link_init_ok chain src draws sd Hc) as (H1 & H2 & <-).
  exact (sched_run_invariants sigma _ _ H1 H2 (mk_stubs_chain _ _ _) Hrun).
Qed.

(** non-vacuity: a concrete link (latency, slicer, bandwidth in series) runs to a state with nothing
    enabled and nothing pending *)
Example c01_complete_example :
  exists l, run_quiet 400 100000000000
              (link_init [(TLatency 20 0, true); (TSlicer 3 0 10, true); (TBandwidth 1, true)]
                         [SWrite 0 [1;2;3;4;5;6;7]; SWrite 5000000 [8;9]; SClose 9000000] []) = Some l /\
            next_time l = None /\ sink_bytes l = [1;2;3;4;5;6;7;8;9] /\ l_sink_closed l <> None.
Proof. eexists. split; [vm_compute; reflexivity|]. split; [vm_compute; reflexivity|]. split; [vm_compute; reflexivity|]. vm_compute. discriminate. Qed.
