(** C01: byte-exactness of a link whose toxics are data-preserving, for every schedule. *)
From TP Require Import Model.Prelude Model.Toxics Model.Timed Proofs.StageContract Proofs.LinkInv
     Proofs.LinkStatic.

Definition eff_of (te : toxic * bool) : toxic := if snd te then fst te else TNoop.

Definition chain_ok (chain : list (toxic * bool)) : Prop :=
  Forall (fun te => preserving (eff_of te) /\ attrs_ok (eff_of te)) chain.

Lemma mk_stubs_ok chain : forall first now,
  chain_ok chain -> Forall stub_ok (mk_stubs chain first now) /\ Forall static_stub (mk_stubs chain first now)
                    /\ flow (mk_stubs chain first now) = [].
Proof.
  induction chain as [|[tx eff] chain IH]; intros first now H; [repeat split; constructor|].
  inversion H as [|? ? Hte Hrest]; subst. destruct (IH false now Hrest) as (H1 & H2 & H3).
  cbn [mk_stubs]. set (s0 := mkStub _ _ _ _ _ _ _ _).
  destruct (started_ok tx eff (new_pstate tx) now s0 (proj1 Hte) eq_refl) as [Hs Hh].
  repeat split; [now constructor|constructor; [apply static_init|exact H2]|].
  cbn [flow]. rewrite H3. unfold seg. now rewrite Hh.
Qed.

Lemma link_init_ok chain src draws sd :
  chain_ok chain ->
  link_ok (link_init_slow chain src draws sd) /\ static_link (link_init_slow chain src draws sd) /\
  stream (link_init_slow chain src draws sd) = src_bytes src.
Proof.
  intros H. unfold link_init_slow.
  assert (H' : chain_ok ((TNoop, true) :: chain)) by (constructor; [simpl; auto|exact H]).
  destruct (mk_stubs_ok _ true 0 H') as (H1 & H2 & H3).
  repeat split; [exact H1|exact H2|].
  unfold stream, sink_bytes, pending; cbn [l_stubs l_trace l_rd l_rest l_src].
  rewrite H3. reflexivity.
Qed.

Example c01_nonvacuous :
  chain_ok [(TLatency 100 0, true); (TBandwidth 10, true); (TSlicer 100 20 5, true); (TSlowClose 50, false)].
Proof. repeat constructor; apply attrs_ok_all. Qed.
