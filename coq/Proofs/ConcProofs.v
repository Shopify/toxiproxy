(** C16 on the model. Each of create / delete / single-entry populate / toxic add / update / remove
    does its whole effect inside one critical section of the code (the lock facts are extracted
    from the source), so a complete schedule of k concurrent requests of these kinds IS a sequential
    run of [api_step] in the order of their critical sections - a linearization by construction.
    What remains to prove is what every such order implies. *)
From Coq Require Import String.
From TP Require Import Model.Prelude Extracted Model.Json Model.Api Proofs.ApiInv.
Local Open Scope Z_scope.

(** responses of a sequential run *)
Fixpoint run_resps (e : env) (s : server) (rs : list request) : list response * server :=
  match rs with
  | [] => ([], s)
  | r :: rest => let '(resp, s1) := api_step e s r in let '(resps, s2) := run_resps e s1 rest in (resp :: resps, s2)
  end.

Definition count_status (code : Z) (rs : list response) : nat := length (filter (fun r => status r =? code) rs).

Definition create_req (name listen upstream : string) : request :=
  mkReq POST ["proxies"%string] (BJson (JObj [("name", JStr name); ("listen", JStr listen); ("upstream", JStr upstream)]%string)) false.

Definition delete_req (name : string) : request := mkReq DELETE ["proxies"%string; name] BEmpty false.

Lemma run_resps_cons e s r rs :
  fst (run_resps e s (r :: rs)) = fst (api_step e s r) :: fst (run_resps e (snd (api_step e s r)) rs).
Proof. cbn [run_resps]. destruct (api_step e s r) as [resp s1]. cbn [fst snd]. now destruct (run_resps e s1 rs). Qed.

Lemma count_status_cons code r rs :
  count_status code (r :: rs) = if status r =? code then S (count_status code rs) else count_status code rs.
Proof. unfold count_status. cbn [filter]. now destruct (status r =? code). Qed.

Lemma create_step e s name listen upstream :
  api_step e s (create_req name listen upstream) =
  h_proxy_create e s (BJson (JObj [("name", JStr name); ("listen", JStr listen); ("upstream", JStr upstream)]%string)).
Proof. reflexivity. Qed.

Lemma delete_step e s name : name <> ""%string -> api_step e s (delete_req name) = h_proxy_delete s name.
Proof. destruct name; [congruence|reflexivity]. Qed.

(** of any number of creates of one name - whatever the name, the listen addresses and the upstreams, in
    any order - at most one succeeds, and once the name is taken all are refused *)
Theorem creates_once e name : forall (specs : list (string * string)) s,
  (count_status status_created (fst (run_resps e s (map (fun su => create_req name (fst su) (snd su)) specs))) <= 1)%nat /\
  (find_proxy s name <> None ->
   count_status status_created (fst (run_resps e s (map (fun su => create_req name (fst su) (snd su)) specs))) = 0%nat).
Proof.
  induction specs as [|[l u] specs IH]; intros s; [split; [apply Nat.le_0_l|reflexivity]|].
  cbn [map fst snd]. rewrite run_resps_cons, count_status_cons, create_step, create_named.
  destruct (_ || _)%bool; [exact (IH s)|]. pose proof (IH s) as IHs.
  destruct (find_proxy s name) eqn:Hf; [exact IHs|]. destruct (start_proxy e s _) as [p'|] eqn:Hs; [|exact IHs].
  (* created: the name is taken from now on *)
  apply start_same in Hs as [Hp _]. cbn [fst snd]. destruct (IH (s ++ [p'])%list) as [_ ->]; [easy|].
  rewrite find_snoc, Hf, Hp. now rewrite String.eqb_refl.
Qed.
