(** C04: the stubs of every registered link stay aligned with the listed chain over every history
    of toxic operations and link events, provided every path of RemoveToxic drops the removed
    toxic's stub (extracted from link.go). *)
From TP Require Import Model.Prelude Extracted Model.Collection.

Lemma map_remove_at {A B} (f : A -> B) (l : list A) : forall i, map f (remove_at i l) = remove_at i (map f l).
Proof. induction l as [|x l IH]; intros [|i]; simpl; auto. now rewrite IH. Qed.

Lemma map_close_from (l : clink) : forall j, map cs_name (close_from j l) = map cs_name l.
Proof. induction l as [|x l IH]; intros [|j]; simpl; auto; now rewrite IH. Qed.

Lemma Forall_remove_at {A} (P : A -> Prop) (l : list A) : forall i, Forall P l -> Forall P (remove_at i l).
Proof.
  induction l as [|x l IH]; intros [|i] H; simpl; auto; inversion H; auto.
Qed.

Section Aligned.
  Hypothesis Hs : remove_always_splices = true.

  Lemma aligned_remove chain i links : forall early,
    Forall (fun l => map cs_name l = chain) links ->
    Forall (fun l => map cs_name l = remove_at i chain) (map2_remove i early links).
  Proof.
    intros early H. revert early. induction H as [|l r Hl _ IH]; intros early; constructor; [|apply IH].
    rewrite Hs, Bool.andb_false_r, map_remove_at. now rewrite Hl.
  Qed.

  Lemma step_aligned c o : aligned c -> aligned (cstep c o).
  Proof.
    unfold aligned. intros H. destruct o as [name|name|name early| |k|k j]; simpl; trivial.
    - destruct (index_of name (c_chain c) 0); [exact H|]. simpl.
      apply Forall_map. revert H. apply Forall_impl. intros l Hl. now rewrite map_app, Hl.
    - destruct (index_of name (c_chain c) 0) as [[|i]|]; try exact H. exact (aligned_remove (c_chain c) (S i) _ early H).
    - apply Forall_app. split; [exact H|]. repeat constructor. rewrite map_map. apply map_id.
    - now apply Forall_remove_at.
    - apply Forall_map, Forall_forall. intros [n l] Hl. apply in_combine_r in Hl. rewrite Forall_forall in H. simpl.
      destruct (Nat.eqb n k); [rewrite map_close_from|]; now apply H.
  Qed.

  Theorem run_aligned_from ops : forall c, aligned c -> aligned (fold_left cstep ops c).
  Proof. induction ops as [|o r IH]; simpl; auto using step_aligned. Qed.

  Theorem run_aligned ops : aligned (crun ops).
  Proof. apply run_aligned_from. constructor. Qed.
End Aligned.

(** without the splice on the early-return paths alignment is lost (the pinned code, finding F4):
    two toxics, the stream ends, the first is removed - the second toxic's stub is now at the wrong
    position, and the next operation on it addresses its neighbour *)
Definition cstep_pinned (c : coll) (o : cop) : coll :=
  match o with
  | ORemove name early =>
    match index_of name (c_chain c) 0 with
    | Some (S i) => mkColl (remove_at (S i) (c_chain c))
                           (map (fun p => if (snd p : bool) then fst p else remove_at (S i) (fst p))
                                (combine (c_links c) (early ++ repeat false (length (c_links c)))))
    | _ => c
    end
  | _ => cstep c o
  end.
