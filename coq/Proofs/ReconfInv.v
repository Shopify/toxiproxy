(** C02 on the model: interleave the control steps of add / update / remove / reset with the data
    path in any order whatsoever; as long as every toxic involved is data-preserving (inside its
    guard) and no hand-off is given up (the 5 s clause of the property: no ASendTimeout, no
    CForwardDrop), [delivered ++ in flight ++ pending] stays the source stream: nothing is lost,
    duplicated, reordered or altered. *)
From TP Require Import Model.Prelude Extracted Model.Toxics Model.Timed Model.Reconf Proofs.StageContract
     Proofs.LinkSteps Proofs.LinkInv.

(** which control actions the invariant admits, in the state in which they are taken. An attribute
    write ([CSetTx]) must leave the running stage in a state that is well-formed for the new
    attributes: true of every stage and every value once the bandwidth toxic cuts with the rate it
    tested ([setx_keeps_wf] below; on a tree where it re-reads the attribute this is where the proof
    stops, and the state it stops at is the crash of finding F13). *)
Definition ctl_ok (l : link) (a : cact) : Prop :=
  match a with
  | CRestart _ tx eff | CAppend tx eff | CInsertAfter _ tx eff =>
    let t := if eff then tx else TNoop in preserving t /\ attrs_ok t
  | CForwardDrop _ | CSever _ => False
  | CSetTx i tx =>
    match nth_error (l_stubs l) i with
    | Some s => let t := if s_eff s then tx else TNoop in
                preserving t /\ attrs_ok t /\ wf t (s_st s) /\ pstate_ok t (s_ps s)
    | None => True
    end
  | _ => True
  end.

Lemma flow_remove_nth ss : forall i s, nth_error ss i = Some s -> seg s = [] -> flow (remove_nth i ss) = flow ss.
Proof.
  induction ss as [|x ss IH]; intros [|i] s Hn E; simpl; try discriminate.
  - injection Hn as ->. now rewrite E, app_nil_r.
  - now rewrite (IH i s).
Qed.

Lemma set_stubs_preserves l ss :
  Forall stub_ok ss -> flow ss = flow (l_stubs l) -> link_ok (set_stubs l ss) /\ stream (set_stubs l ss) = stream l.
Proof. intros Hok E. split; [exact Hok|]. cbn. now rewrite E. Qed.

Lemma insert_preserves l i st :
  link_ok l -> stub_ok st -> seg st = [] -> link_ok (insert_stub l i st) /\ stream (insert_stub l i st) = stream l.
Proof.
  intros Hok Hst E. apply set_stubs_preserves; [now apply Forall_insert|].
  rewrite flow_app. cbn [flow]. now rewrite E, app_nil_r, <- flow_app, firstn_skipn.
Qed.

Theorem ctl_preserves l a l' :
  link_ok l -> ctl_ok l a -> ctl_step l a = Some l' -> link_ok l' /\ stream l' = stream l.
Proof.
  intros Hok Ha H%ctl_step_does. destruct H; cbn [ctl_ok] in Ha;
    try contradiction. (* CForwardDrop and CSever lose data: [ctl_ok] does not admit them *)
  - (* CInterrupt *) pose proof (link_ok_nth _ _ _ Hok Hn) as Hs.
    destruct (on_interrupt_wf (eff_tx s) (l_now l) (s_st s)) as [Hw Hh]; [apply Hs|].
    apply upd_preserves with s; auto; [now apply (stub_ok_upd s)|]. unfold seg. cbn. now rewrite Hh.
  - (* CRestart *) destruct Hp as [Hst _].
    destruct (started_ok tx eff _ (l_now l) (restarted s tx eff (l_now l)) (proj1 Ha) eq_refl) as [Hs' Hh].
    apply upd_preserves with s; auto. unfold seg. rewrite Hh, Hst. reflexivity.
  - (* CAppend *)
    destruct (started_ok tx eff _ (l_now l) (fresh_stub tx eff (l_now l)) (proj1 Ha) eq_refl) as [Hs' Hh].
    apply set_stubs_preserves; [apply Forall_app; auto|]. rewrite flow_app. cbn. unfold seg. now rewrite Hh.
  - (* CForward *) destruct Hp as [Hst _].
    destruct (handoff_cut 0 l l1 i s (set_inq s q) c Hn Hn1 Ho Hok (Nat.le_0_l _)) as [Hok' Hd]; [lia| |].
    + intros _. split; [now apply (stub_ok_frame s _ (link_ok_nth _ _ _ Hok Hn))|]. unfold seg. cbn. now rewrite Hst, Hq.
    + split; [exact Hok'|]. apply stream_same; [exact Hd|exact (offer_reader _ _ _ _ Ho)].
  - (* CDelete *) destruct Hp as [Hst _]. apply set_stubs_preserves; [now apply Forall_remove_nth|].
    apply flow_remove_nth with s; auto. unfold seg. now rewrite Hst, Hq.
  - (* CSetTx *) rewrite Hn in Ha. destruct Ha as (Hp & Hat & Hw & Hps).
    apply upd_preserves with s; auto. unfold stub_ok, eff_tx. cbn. auto.
  - (* CFlushRecv *) destruct Hp as [Hst _]. rewrite stub_sent_eq.
    destruct (sent_ok sp c (l_now l) (link_ok_nth _ _ _ Hok Hnp) Hc) as [Hsp' E]. split.
    + apply Forall_set_nth; [apply Forall_set_nth; [exact Hok|]|exact Hsp']. now apply (stub_ok_frame s _ (link_ok_nth _ _ _ Hok Hn)).
    + apply stream_same; [|reflexivity]. apply handoff_downstream with sp c; auto with arith; [now rewrite upd_stub_other by lia|].
      apply received_upd with s; [exact Hn|]. unfold seg. cbn. now rewrite Hst, Hq, app_nil_r.
  - (* CCloseEnd *) pose proof (link_ok_nth _ _ _ Hok Hn) as Hs.
    destruct (upd_preserves l i s (set_closed s) Hok Hn) as [Hok1 E1]; [now apply (stub_ok_frame s)|reflexivity|].
    destruct (close_downstream_preserves _ (S i) Hok1) as [Hok2 E2]. split; [exact Hok2|congruence].
  - (* CInsertAfter *)
    destruct (started_ok tx eff _ (l_now l) (fresh_stub tx eff (l_now l)) (proj1 Ha) eq_refl) as [Hs' Hh].
    apply insert_preserves; auto. unfold seg. now rewrite Hh.
  - (* CInsertDead *) apply insert_preserves; auto. unfold stub_ok, eff_tx. cbn. auto.
Qed.

Definition mact_ok (l : link) (a : mact) : Prop :=
  match a with
  | MData (ASendTimeout _) => False
  | MData _ => True
  | MCtl c => ctl_ok l c
  end.

(** every action of the history is admitted in the state in which it is taken *)
Fixpoint run_ok (l : link) (sigma : list mact) : Prop :=
  match sigma with
  | [] => True
  | a :: r => mact_ok l a /\ match mixed_step l a with Some l' => run_ok l' r | None => True end
  end.

Theorem mixed_run_inv sigma : forall l l',
  link_ok l -> run_ok l sigma -> mixed_run l sigma = Some l' ->
  link_ok l' /\ stream l' = stream l.
Proof.
  induction sigma as [|a sigma IH]; intros l l' Hok Hs Hrun; simpl in Hrun.
  - inversion Hrun; subst. auto.
  - destruct (mixed_step l a) as [l1|] eqn:Hst; [|discriminate].
    cbn [run_ok] in Hs. rewrite Hst in Hs. destruct Hs as [Ha Hrest].
    assert (H1 : link_ok l1 /\ stream l1 = stream l).
    { destruct a as [d|c]; [|exact (ctl_preserves l c l1 Hok Ha Hst)].
      apply (step_preserves l d l1 Hst); [|exact Hok]. intros i ->. exact Ha. }
    destruct H1 as [Hok1 Hs1]. destruct (IH l1 l' Hok1 Hrest Hrun) as [H2 H3].
    split; [exact H2|congruence].
Qed.

(** the state-independent part: histories without attribute writes need no look at the states *)
Definition mact_static_ok (a : mact) : Prop :=
  match a with
  | MData (ASendTimeout _) => False
  | MData _ => True
  | MCtl (CSetTx _ _) => False
  | MCtl c => forall l, ctl_ok l c
  end.

Definition same_kind (a b : toxic) : bool :=
  match a, b with
  | TNoop, TNoop | TLatency _ _, TLatency _ _ | TBandwidth _, TBandwidth _ | TSlicer _ _ _, TSlicer _ _ _
  | TSlowClose _, TSlowClose _ | TTimeout _, TTimeout _ | TResetPeer _, TResetPeer _ | TLimitData _, TLimitData _ => true
  | _, _ => false
  end.

(** an attribute write leaves every stage well-formed - in every state of every toxic, for every new
    value of the same toxic type - provided the bandwidth cut uses the rate its loop test read *)
Theorem setx_keeps_wf (old new : toxic) (st : lstate) :
  bw_cut_uses_tested_rate = true -> same_kind old new = true -> wf old st -> wf new st.
Proof.
  intros Hfact Hk Hw. destruct old, new; try discriminate; destruct st; auto.
  destruct Hw as [Hs _]. split; [exact Hs|]. rewrite Hfact. discriminate.
Qed.

Lemma same_kind_preserving a b : same_kind a b = true -> preserving a -> preserving b.
Proof. destruct a; destruct b; try discriminate; trivial. Qed.
