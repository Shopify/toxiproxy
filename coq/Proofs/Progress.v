(** No deadlock on a static link (C01/C02 liveness half). For a link of data-preserving toxics that
    is not being reconfigured: if nothing can move now and no timer, receiver pause or source event
    is pending, then everything the reader took from the sender has been delivered, nothing is
    held anywhere, and if the sender has closed then every stage has exited and the receiver has
    been closed. Together with the safety invariant [stream l = source] this says the executable
    run only stops when the transfer is complete. Proved through a closure-order invariant:
    stub i+1's input is closed exactly when stub i has closed, a stage is closing / gone only
    after its input was closed and drained. *)
From TP Require Import Model.Prelude Extracted Model.Toxics Model.Timed Proofs.StageContract Proofs.LinkSteps
     Proofs.LinkInv Proofs.LinkStatic.

(** the stage has seen the end of its input: it waits to pass the close on (slow_close), is closing, or
    has returned *)
Definition late (st : lstate) : bool := match st with Closing | Exited | ScWait _ => true | _ => false end.

Definition stub_inv (s : stub) : Prop :=
  (s_closed s = true <-> s_st s = Exited) /\ (late (s_st s) = true -> s_in_closed s = true /\ s_inq s = []).

(** [u] = "the producer feeding this list has closed"; [sc] = what the consumer after the list sees *)
Fixpoint chain_inv (u : bool) (ss : list stub) (sc : bool) : Prop :=
  match ss with
  | [] => sc = u
  | s :: r => s_in_closed s = u /\ stub_inv s /\ chain_inv (s_closed s) r sc
  end.

Definition rd_closed (l : link) : bool := match l_rd l with RClosed => true | _ => false end.
Definition sink_closed_b (l : link) : bool := match l_sink_closed l with Some _ => true | None => false end.
Definition closure_inv (l : link) : Prop := chain_inv (rd_closed l) (l_stubs l) (sink_closed_b l).

(** which transitions end a stage. A transition of a data-preserving toxic lands on a constructor or on
    [bw_loop] / [slicer_next] (StageContract), neither of which is late ([limit_after] can be, but
    limit_data is not data-preserving) *)
Lemma not_late_not_exited st : late st = false -> st <> Exited.
Proof. now intros H ->. Qed.

Lemma late_init tx ps now : late (init_state tx ps now) = false.
Proof. destruct tx; try reflexivity. now destruct ps. Qed.

Lemma late_bw_loop rate p sl now : late (bw_loop rate p sl now) = false.
Proof. unfold bw_loop. now destruct (bw_split_test _ _). Qed.

Lemma late_slicer_next c rest o tot : late (slicer_next c rest o tot) = false.
Proof. unfold slicer_next. destruct rest as [|lo [|hi r]]; try reflexivity. now destruct (_ && _). Qed.

Lemma on_input_goes_on tx ps now ds (c : chunk) acc tmr :
  preserving tx -> late (fst (on_input tx ps now ds (Some c) (Idle acc tmr))) = false.
Proof.
  destruct tx; try contradiction; intros _; cbn [on_input fst]; try reflexivity.
  - now destruct (latency_delay lat jit ds) as [[d|] ds'].
  - apply late_bw_loop.
  - destruct (slicer_chunk _ _ _ _ _ _); [apply late_slicer_next|reflexivity..].
Qed.

Lemma on_sent_goes_on tx ps now st (c : chunk) :
  preserving tx -> static_st st -> sends st = Some c -> late (fst (on_sent tx ps now st)) = false.
Proof.
  intros Hp Hs Hc. destruct st as [|c0 k| | | | | | | | | | |]; try discriminate; try contradiction.
  destruct k; try contradiction; destruct tx; try contradiction; try reflexivity. apply late_bw_loop.
Qed.

Lemma on_input_nil_stays tx ps now ds acc tmr : fst (on_input tx ps now ds None (Idle acc tmr)) <> Exited.
Proof. destruct tx; discriminate. Qed.

Lemma on_timer_late tx now s : preserving tx -> wf tx s -> late (on_timer tx now s) = true -> late s = true.
Proof.
  intros Hp Hw. unfold on_timer. destruct s; cbn [on_timer_gen]; trivial.
  - destruct tmr; [|trivial]. destruct tx; contradiction.
  - destruct tx; trivial. now destruct (slice_ok _ _ _).
  - now rewrite late_slicer_next.
  - destruct tx; contradiction.
Qed.

Lemma on_timer_stays tx now s : s <> Exited -> on_timer tx now s <> Exited.
Proof.
  intros Hs. unfold on_timer. destruct s; cbn [on_timer_gen]; trivial; try discriminate.
  - now destruct tmr.
  - destruct tx; try discriminate. now destruct (slice_ok _ _ _).
  - apply not_late_not_exited, late_slicer_next.
Qed.

Lemma chain_inv_nth : forall ss u sc i s, chain_inv u ss sc -> nth_error ss i = Some s -> stub_inv s.
Proof.
  induction ss as [|x ss IH]; intros u sc i s H Hn; [now destruct i|]. destruct H as (Hu & Hx & Hr).
  destruct i as [|i]; [now injection Hn as <-|eauto].
Qed.

Lemma chain_inv_head u ss sc s : chain_inv u ss sc -> nth_error ss 0 = Some s -> s_in_closed s = u.
Proof. destruct ss; [discriminate|]. now intros (Hu & _) [= <-]. Qed.

Lemma chain_inv_link : forall ss u sc i p s, chain_inv u ss sc ->
  nth_error ss i = Some p -> nth_error ss (S i) = Some s -> s_in_closed s = s_closed p.
Proof.
  induction ss as [|x ss IH]; intros u sc i p s H Hp Hs; [now destruct i|]. destruct H as (Hu & Hx & Hr).
  destruct i as [|i]; [injection Hp as <-; exact (chain_inv_head _ _ _ _ Hr Hs)|eauto].
Qed.

Lemma chain_inv_upd : forall ss u sc i s s', chain_inv u ss sc -> nth_error ss i = Some s ->
  stub_inv s' -> s_in_closed s' = s_in_closed s -> s_closed s' = s_closed s -> chain_inv u (set_nth i s' ss) sc.
Proof.
  induction ss as [|x ss IH]; intros u sc i s s' H Hn Hs' Hi Hc; [now destruct i|]. destruct H as (Hu & Hx & Hr).
  destruct i as [|i]; cbn.
  - injection Hn as <-. rewrite Hi, Hc. auto.
  - eauto.
Qed.

(** the producer of the list closes: its first stub sees the end of the stream *)
Definition shut_head (ss : list stub) : list stub := match ss with [] => [] | t :: r => shut_input t :: r end.

Lemma chain_inv_shut u ss sc : chain_inv u ss sc -> chain_inv true (shut_head ss) (match ss with [] => true | _ => sc end).
Proof.
  destruct ss as [|t r]; [reflexivity|]. intros (Hic & [Ha Hb] & Hr).
  split; [reflexivity|]. split; [|exact Hr]. split; [exact Ha|]. intros H. split; [reflexivity|]. now apply Hb.
Qed.

Lemma chain_inv_close : forall ss u sc i s s', chain_inv u ss sc -> nth_error ss i = Some s ->
  stub_inv s' -> s_in_closed s' = s_in_closed s -> s_closed s' = true ->
  chain_inv u (firstn (S i) (set_nth i s' ss) ++ shut_head (skipn (S i) ss)) (match skipn (S i) ss with [] => true | _ => sc end).
Proof.
  induction ss as [|x ss IH]; intros u sc i s s' H Hn Hs' Hi Hc; [now destruct i|]. destruct H as (Hu & Hx & Hr).
  destruct i as [|i].
  - injection Hn as <-. cbn. rewrite Hi, Hc. split; [exact Hu|]. split; [exact Hs'|]. exact (chain_inv_shut _ _ _ Hr).
  - cbn [set_nth firstn skipn app chain_inv]. eauto.
Qed.

Lemma close_downstream_eq l j :
  l_stubs (close_downstream l j) = firstn j (l_stubs l) ++ shut_head (skipn j (l_stubs l)) /\
  sink_closed_b (close_downstream l j) = match skipn j (l_stubs l) with [] => true | _ => sink_closed_b l end /\
  rd_closed (close_downstream l j) = rd_closed l.
Proof.
  unfold close_downstream. destruct (nth_error (l_stubs l) j) as [t|] eqn:Hn.
  - rewrite (skipn_nth _ _ _ Hn). repeat split. exact (set_nth_cut _ _ _ _ Hn).
  - apply nth_error_None in Hn. rewrite skipn_all2 by exact Hn. cbn. now rewrite firstn_all2, app_nil_r.
Qed.

(** a stub whose stage has not returned, and does not return, is updated in place: the stage may start
    to end only if the input is closed and drained *)
Lemma closure_live l i s s' :
  closure_inv l -> nth_error (l_stubs l) i = Some s -> s_st s <> Exited -> s_st s' <> Exited ->
  (s_in_closed s', s_closed s') = (s_in_closed s, s_closed s) ->
  (late (s_st s') = true -> s_in_closed s = true /\ s_inq s' = []) -> closure_inv (upd_stub l i s').
Proof.
  intros Hci Hn Hne Hne' [= Hi Hc] Hl. destruct (chain_inv_nth _ _ _ _ _ Hci Hn) as [Ha _].
  apply chain_inv_upd with s; auto. split; [|now rewrite Hi].
  rewrite Hc. split; [intros E; now apply Ha in E|contradiction].
Qed.

Lemma live_feeds_open l i s t :
  closure_inv l -> nth_error (l_stubs l) i = Some s -> s_st s <> Exited -> nth_error (l_stubs l) (S i) = Some t ->
  s_in_closed t = false.
Proof.
  intros Hci Hn Hne Ht. rewrite (chain_inv_link _ _ _ _ _ _ Hci Hn Ht). destruct (chain_inv_nth _ _ _ _ _ Hci Hn) as [Ha _].
  destruct (s_closed s); [|reflexivity]. destruct Hne. now apply Ha.
Qed.

Lemma closure_offer l j c l1 :
  link_ok l -> closure_inv l -> offer l j c = Some l1 ->
  (forall t, nth_error (l_stubs l) j = Some t -> s_in_closed t = false) -> closure_inv l1.
Proof.
  intros Hok Hci Ho%offer_offered Hopen. destruct Ho.
  - unfold closure_inv, rd_closed, sink_closed_b, deliver_sink. now destruct (_ =? 0).
  - destruct (chain_inv_nth _ _ _ _ _ Hci Hn) as [Ha Hb].
    apply chain_inv_upd with t; auto. split; [exact Ha|]. intros Hl. destruct (Hb Hl). rewrite (Hopen t Hn) in *. discriminate.
  - rewrite stub_input_eq.
    destruct (link_ok_nth _ _ _ Hok Hn) as (Hp & _).
    apply (closure_live l j t); auto; cbn [set_inq with_st s_st]; rewrite Hst; try discriminate.
    + now apply not_late_not_exited, on_input_goes_on.
    + now rewrite on_input_goes_on.
Qed.

Theorem closure_step l a l' :
  link_ok l -> static_link l -> closure_inv l -> sched_step l a = Some l' -> closure_inv l'.
Proof.
  intros Hok Hsl Hci H%sched_step_does. destruct H; auto.
  - (* a stage takes from its input *)
    rewrite stub_input_eq.
    destruct (link_ok_nth _ _ _ Hok Hn) as (Hp & _).
    apply (closure_live l i s); auto; cbn [set_inq with_st s_st s_inq]; rewrite Hst; try discriminate.
    + destruct c; [now apply not_late_not_exited, on_input_goes_on|apply on_input_nil_stays].
    + destruct c; [now rewrite on_input_goes_on|tauto].
  - (* a send completes *)
    rewrite stub_sent_eq.
    assert (Hci1 : closure_inv l1) by (apply (closure_offer l (S i) c); eauto using live_feeds_open, sends_live).
    destruct (link_ok_nth _ _ _ Hok Hn) as (Hp & _).
    pose proof (on_sent_goes_on _ (s_ps s) (l_now l1) _ _ Hp (static_nth _ _ _ Hsl Hn) Hc) as Hgo.
    apply (closure_live l1 i s); auto; cbn [s_st]; [exact (sends_live _ _ Hc)|now apply not_late_not_exited|now rewrite Hgo].
  - (* a stage closes its stub *)
    destruct (chain_inv_nth _ _ _ _ _ Hci Hn) as [Ha Hb].
    unfold closure_inv. destruct (close_downstream_eq (upd_stub l i (set_closed (with_st s Exited))) (S i)) as (-> & -> & ->).
    cbn [upd_stub l_stubs]. rewrite (skipn_set_nth_lt _ (S i) i) by lia.
    apply chain_inv_close with s; auto. split; [tauto|]. intros _. apply Hb. now rewrite Hst.
  - (* a timer fires *)
    destruct (chain_inv_nth _ _ _ _ _ Hci Hn) as [_ Hb].
    assert (Hne : s_st s <> Exited) by (intros E; now rewrite E in Hm).
    destruct (link_ok_nth _ _ _ Hok Hn) as (Hp & _ & Hw & _).
    apply (closure_live l i s); auto; cbn [with_st s_st s_inq]; [now apply on_timer_stays|].
    intros Hl. apply Hb. exact (on_timer_late _ _ _ Hp Hw Hl).
  - (* a hand-off is given up: not on a static link *)
    apply (static_nth _ _ _ Hsl) in Hn. unfold static_stub in Hn. now rewrite Hst in Hn.
  - (* the reader hands over *)
    assert (Hci1 : closure_inv l1).
    { apply (closure_offer l O c); auto. intros t Ht. rewrite (chain_inv_head _ _ _ _ Hci Ht).
      unfold rd_closed. now rewrite Hrd. }
    injection (offer_reader _ _ _ _ Ho) as E _ _ _. unfold closure_inv, rd_closed in *. now rewrite E, Hrd in Hci1.
  - unfold closure_inv, rd_closed in *. now rewrite Hrd in Hci.
  - unfold closure_inv, rd_closed in *. now rewrite Hrd in Hci.
  - (* the reader sees the close *)
    unfold closure_inv in *.
    destruct (close_downstream_eq (set_rd l RClosed src [] (l_rx l)) 0) as (-> & -> & ->).
    exact (chain_inv_shut _ _ _ Hci).
Qed.

Lemma try_stubs_none l : forall n i, try_stubs l n = None -> (i < n)%nat -> try_stub l i = None.
Proof.
  induction n as [|n IH]; intros i H Hi; [lia|]. cbn [try_stubs] in H.
  destruct (try_stub l n) eqn:E; [discriminate|].
  destruct (Nat.eq_dec i n) as [->|Hne]; [exact E|apply IH; [exact H|lia]].
Qed.

Lemma opt_min_none a b : opt_min a b = None -> a = None /\ b = None.
Proof. destruct a, b; try discriminate; auto. Qed.

Lemma deadlines_none ss :
  fold_right (fun s acc => opt_min (stub_deadline s) acc) None ss = None -> Forall (fun s => stub_deadline s = None) ss.
Proof.
  induction ss as [|s ss IH]; cbn [fold_right]; intros H; [constructor|].
  apply opt_min_none in H as [H1 H2]. constructor; auto.
Qed.

Lemma next_time_none l :
  next_time l = None ->
  Forall (fun s => stub_deadline s = None) (l_stubs l) /\ (l_now l <? l_wr_ready l) = false /\
  (l_rd l = RIdle -> l_rest l = [] -> l_src l = []).
Proof.
  unfold next_time. intros H.
  set (ds0 := fold_right _ None (l_stubs l)) in *.
  assert (Hds : (if l_now l <? l_wr_ready l then opt_min (Some (l_wr_ready l)) ds0 else ds0) = None).
  { destruct (l_rd l); try exact H. destruct (l_rest l); try exact H. destruct (l_src l); try exact H.
    apply opt_min_none in H as [H _]. discriminate. }
  destruct (l_now l <? l_wr_ready l).
  - apply opt_min_none in Hds as [Hx _]. discriminate.
  - split; [apply deadlines_none; exact Hds|]. split; [reflexivity|].
    intros Hrd Hrest. rewrite Hrd, Hrest in H. destruct (l_src l); [reflexivity|].
    apply opt_min_none in H as [H _]. discriminate.
Qed.

(** a stub at rest: idle with an open, empty input, or gone *)
Definition st_idle_open (s : stub) : Prop := (exists acc, s_st s = Idle acc None) /\ s_inq s = [] /\ s_in_closed s = false.
Definition quiet_stub (s : stub) : Prop := st_idle_open s \/ s_st s = Exited.

(** a stub that cannot move and has no deadline is at rest, or in a plain send that its consumer refuses *)
Lemma unmoved_stub_cases l i s :
  nth_error (l_stubs l) i = Some s -> stub_ok s -> try_stub l i = None -> stub_deadline s = None ->
  quiet_stub s \/ exists c k, s_st s = Send c k /\ offer l (S i) c = None.
Proof.
  intros Hn (_ & _ & Hw & _) Ht Hd. unfold try_stub in Ht. destruct (stub_move l i) eqn:Hm; [discriminate|]. clear Ht.
  unfold stub_move in Hm. rewrite Hn in Hm. unfold stub_deadline in Hd. unfold quiet_stub, st_idle_open.
  destruct (s_st s) as [acc tmr|c k|c dl| | | | | | | | | |]; cbn [mode_of] in Hm, Hd; try discriminate; try contradiction; auto.
  - left. left. subst tmr. destruct (s_inq s); [|discriminate]. destruct (s_in_closed s); [discriminate|eauto].
  - right. exists c, k. split; [reflexivity|]. destruct (offer l (S i) c) as [l1|] eqn:Ho; [|reflexivity].
    rewrite (offer_other _ _ _ _ i Ho), Hn in Hm by lia. discriminate.
Qed.

Lemma offer_at_rest l j c :
  closure_inv l -> l_wr_ready l <= l_now l ->
  (forall t, nth_error (l_stubs l) j = Some t -> quiet_stub t /\ s_in_closed t = false) -> offer l j c <> None.
Proof.
  intros Hci Hwr Ht. unfold offer. destruct (nth_error (l_stubs l) j) as [t|] eqn:Hn.
  - destruct (Ht t eq_refl) as [[((acc & Hst) & Hq & _)|Hg] Hopen].
    + unfold listens_input. rewrite Hq, Hst. cbn. destruct (0 <? s_cap t); discriminate.
    + destruct (chain_inv_nth _ _ _ _ _ Hci Hn) as [_ Hb]. rewrite Hg in Hb. destruct (Hb eq_refl). congruence.
  - replace (l_wr_ready l <=? l_now l) with true by lia. discriminate.
Qed.

Lemma quiet_stubs l :
  link_ok l -> closure_inv l -> step_now l = None -> next_time l = None -> Forall quiet_stub (l_stubs l).
Proof.
  intros Hok Hci Hnow Hnext. destruct (next_time_none l Hnext) as (Hdl & Hwr & _).
  assert (Hts : try_stubs l (length (l_stubs l)) = None) by (unfold step_now in Hnow; now destruct (try_stubs _ _)).
  (* no stub is stuck in a send: argued from the sink backwards, [d] bounding the distance to it *)
  assert (H : forall d i s, (length (l_stubs l) <= i + d)%nat -> nth_error (l_stubs l) i = Some s -> quiet_stub s).
  { induction d as [|d IH]; intros i s Hd Hn;
      assert (Hi : (i < length (l_stubs l))%nat) by (apply nth_error_Some; congruence); [lia|].
    destruct (unmoved_stub_cases l i s Hn (link_ok_nth _ _ _ Hok Hn) (try_stubs_none l _ _ Hts Hi) (Forall_nth_error _ _ _ _ Hdl Hn))
      as [H|(c & k & Hsend & Hoff)]; [exact H|].
    destruct (offer_at_rest l (S i) c Hci ltac:(lia)); [|exact Hoff]. intros t Ht. split; [apply (IH (S i)); [lia|exact Ht]|].
    apply (live_feeds_open l i s t); auto. now rewrite Hsend. }
  apply Forall_forall. intros s Hin. destruct (In_nth_error _ _ Hin) as [i Hn]. exact (H _ i s (Nat.le_add_l _ _) Hn).
Qed.

Lemma chain_at_rest : forall ss u sc, chain_inv u ss sc -> Forall quiet_stub ss ->
  flow ss = [] /\ (u = true -> Forall (fun s => s_st s = Exited /\ s_closed s = true) ss /\ sc = true).
Proof.
  induction ss as [|s ss IH]; intros u sc Hc Hf; [split; [reflexivity|]; intros ->; auto|].
  destruct Hc as (Hic & [Ha Hb] & Hrest). inversion Hf as [|? ? Hs Hf']; subst. destruct (IH _ _ Hrest Hf') as [Hflow Hgone].
  cbn [flow]. rewrite Hflow. unfold seg. split.
  - destruct Hs as [((acc & ->) & -> & _)|Hg]; [reflexivity|]. rewrite Hg in *. now destruct (Hb eq_refl) as [_ ->].
  - intros Hu. destruct Hs as [(_ & _ & Hopen)|Hg]; [congruence|]. pose proof (proj2 Ha Hg) as Hcl. destruct (Hgone Hcl). auto.
Qed.

(** a link of data-preserving toxics with nothing enabled and nothing pending is done: all of its stream
    is delivered (from any state with the closure order: that the link is static matters for reaching one only) *)
Theorem no_deadlock l :
  link_ok l -> closure_inv l -> step_now l = None -> next_time l = None ->
  stream l = sink_bytes l /\ flow (l_stubs l) = [] /\
  match l_rd l with
  | RSend _ => False
  | RIdle => l_rest l = [] /\ l_src l = []
  | RClosed => Forall (fun s => s_st s = Exited /\ s_closed s = true) (l_stubs l) /\ l_sink_closed l <> None
  end.
Proof.
  intros Hok Hci Hnow Hnext. pose proof (quiet_stubs l Hok Hci Hnow Hnext) as Hall.
  destruct (chain_at_rest _ _ _ Hci Hall) as [Hflow Hgone]. unfold stream, pending. rewrite Hflow.
  destruct (next_time_none l Hnext) as (_ & Hwr & Hsrc).
  assert (Hrdr : try_reader l = None) by (unfold step_now in Hnow; now destruct (try_stubs _ _)).
  unfold try_reader in Hrdr. unfold rd_closed in Hgone. destruct (l_rd l) as [|c|] eqn:Hrd.
  - destruct (l_rest l); [|discriminate]. rewrite Hsrc, app_nil_r by reflexivity. auto.
  - destruct (offer l 0 c) eqn:Ho; [discriminate|]. exfalso. revert Ho. apply offer_at_rest; [exact Hci|lia|].
    intros t Ht. split; [exact (Forall_nth_error _ _ _ _ Hall Ht)|]. rewrite (chain_inv_head _ _ _ _ Hci Ht).
    unfold rd_closed. now rewrite Hrd.
  - destruct (Hgone eq_refl) as [Hg Hsc]. rewrite app_nil_r. repeat split; [exact Hg|]. unfold sink_closed_b in Hsc. now destruct (l_sink_closed l).
Qed.

Lemma mk_stubs_chain chain : forall first now, chain_inv false (mk_stubs chain first now) false.
Proof.
  induction chain as [|[tx eff] chain IH]; intros first now; [reflexivity|].
  split; [reflexivity|]. split; [|apply IH].
  pose proof (late_init (if eff then tx else TNoop) (new_pstate tx) now) as Hl.
  split; cbn [s_closed s_st]; [|now rewrite Hl]. split; [discriminate|]. intros E. now apply not_late_not_exited in Hl.
Qed.

Lemma sched_run_invariants sigma l l' :
  link_ok l -> static_link l -> closure_inv l -> sched_run l sigma = Some l' ->
  link_ok l' /\ static_link l' /\ closure_inv l' /\ stream l' = stream l.
Proof.
  intros Hok Hst Hci H.
  apply (sched_run_ind (fun x => link_ok x /\ static_link x /\ closure_inv x /\ stream x = stream l)) with sigma l; auto.
  clear. intros x a x' (Hok & Hst & Hci & E) Hs.
  assert (Hnt : forall i, a <> ASendTimeout i).
  { intros i ->. simpl in Hs. rewrite (static_no_send_timeout x i Hst) in Hs. discriminate. }
  destruct (step_preserves x a x' Hs Hnt Hok) as [Hok' E']. split; [exact Hok'|]. split; [exact (static_step x a x' Hs Hst)|].
  split; [exact (closure_step x a x' Hok Hst Hci Hs)|congruence].
Qed.

Lemma run_quiet_stops fuel : forall horizon l l', run_quiet fuel horizon l = Some l' -> step_now l' = None.
Proof.
  induction fuel as [|f IH]; intros horizon l l' H; cbn [run_quiet] in H; [discriminate|].
  destruct (step_now l) as [l1|] eqn:Hs; [eapply IH; exact H|].
  destruct (next_time l) as [t|].
  - destruct (t <=? horizon); [eapply IH; exact H|]. inversion H; subst. exact Hs.
  - inversion H; subst. exact Hs.
Qed.
