(** Flow across a cut. [below k l] = what has been delivered plus what is inside the stubs at
    positions >= k ([downstream k] of Proofs/LinkInv.v, where the step lemma is proved for every cut).
    For stubs below the cut that meet the stage contract, every action of every schedule leaves
    [below k] unchanged, except stub k-1's own send, which adds exactly the chunk it hands over (and
    the reader's hand-off for k = 0). Hence: if stub k-1 is dead, nothing ever crosses - whatever is
    upstream of a removed timeout toxic is never delivered. *)
From TP Require Import Model.Prelude Model.Timed Proofs.LinkInv Proofs.LinkFrame Proofs.WallProofs.

Definition below (k : nat) (l : link) : bytes := sink_bytes l ++ flow (skipn k (l_stubs l)).

Definition crosses (k : nat) (a : act) : Prop :=
  match a with
  | AMove j => S j = k
  | AReader => k = O
  | ASendTimeout j => (k <= j)%nat        (* a given-up hand-off below the cut drops data: the 5 s clause *)
  | _ => False
  end.

Lemma sink_same_trace l l' : l_trace l' = l_trace l -> sink_bytes l' = sink_bytes l.
Proof. unfold sink_bytes. now intros ->. Qed.

Theorem cut_step k l a l' :
  (k <= length (l_stubs l))%nat -> Forall stub_ok (skipn k (l_stubs l)) ->
  sched_step l a = Some l' -> ~ crosses k a ->
  below k l' = below k l /\ Forall stub_ok (skipn k (l_stubs l')) /\ length (l_stubs l') = length (l_stubs l).
Proof.
  intros Hk Hok Hstep Hnc. destruct (cut_preserves k l a l' Hstep) as [Hok' Hd]; auto.
  - destruct a; cbn in *; lia.
  - split; [exact Hd|]. split; [exact Hok'|exact (step_length _ _ _ Hstep)].
Qed.

(** nothing crosses a dead stub, on any schedule (given-up hand-offs below it excluded: the 5 s
    clause): delivered ++ in flight below the wall is constant, so what the receiver ever gets is
    made of what was already below the wall - nothing that is parked above it or still arrives *)
Theorem nothing_crosses_a_wall sigma : forall l l' i,
  wall l i -> Forall stub_ok (skipn (S i) (l_stubs l)) ->
  Forall (fun a => forall j, (S i <= j)%nat -> a <> ASendTimeout j) sigma ->
  sched_run l sigma = Some l' ->
  below (S i) l' = below (S i) l /\ wall l' i.
Proof.
  induction sigma as [|a sigma IH]; intros l l' i Hw Hok Hs Hrun; simpl in Hrun; [inversion Hrun; subst; auto|].
  destruct (sched_step l a) as [l1|] eqn:Hstep; [|discriminate].
  inversion Hs as [|? ? Ha Hrest]; subst.
  assert (Hk : (S i <= length (l_stubs l))%nat).
  { destruct Hw as (s & Hn & _). apply nth_error_Some. congruence. }
  assert (Hnc : ~ crosses (S i) a).
  { destruct a as [j|j|j| |t]; cbn [crosses]; try tauto; try lia.
    - intros E. inversion E; subst j. destruct (wall_silent_data l i Hw) as [Hm _]. rewrite Hm in Hstep. discriminate.
    - intros Hj. exact (Ha j Hj eq_refl). }
  destruct (cut_step (S i) l a l1 Hk Hok Hstep Hnc) as (Hb & Hok1 & _).
  pose proof (wall_step _ _ _ _ Hstep Hw) as Hw1.
  destruct (IH l1 l' i Hw1 Hok1 Hrest Hrun) as [Hb' Hw']. split; [congruence|exact Hw'].
Qed.

Corollary delivered_after_wall sigma l l' i :
  wall l i -> Forall stub_ok (skipn (S i) (l_stubs l)) ->
  Forall (fun a => forall j, (S i <= j)%nat -> a <> ASendTimeout j) sigma ->
  sched_run l sigma = Some l' ->
  is_prefix (sink_bytes l') (sink_bytes l ++ flow (skipn (S i) (l_stubs l))).
Proof.
  intros Hw Hok Hs Hrun. destruct (nothing_crosses_a_wall sigma l l' i Hw Hok Hs Hrun) as [Hb _].
  unfold below in Hb. exists (flow (skipn (S i) (l_stubs l'))). symmetry. exact Hb.
Qed.
