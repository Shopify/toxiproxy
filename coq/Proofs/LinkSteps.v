(** What a step of a link is made of. A proof about [sched_step] or [ctl_step] would have to walk their
    tree of guards; here the tree is walked once. The relations [sched_does] and [ctl_does] present
    each action by its guard facts and its result in terms of a few edits of the link ([upd_stub],
    [stub_input], [stub_sent], [offer], [close_downstream], ...), and every step is in them
    ([sched_step_does], [ctl_step_does], [offer_offered]), so that an invariant is proved edit by edit, by
    cases on the relation; the guard facts of a case go by the names they have in its constructor. A
    hand-off is [offer] followed by the producer's own completion; [offer] touches only the consumer,
    which is why the producer that the model re-reads afterwards is the stub it was. *)
From TP Require Import Model.Prelude Model.Toxics Model.Timed Model.Reconf Proofs.GoArith
     Proofs.StageContract.

Section Positions.
  Context {A B : Type}.
  Implicit Types (l : list A) (i j : nat) (x y : A).

  Lemma set_nth_length l : forall i x, length (set_nth i x l) = length l.
  Proof. induction l as [|y l IH]; intros [|i] x; simpl; auto. Qed.

  Lemma nth_set_nth_eq l : forall i x y, nth_error l i = Some y -> nth_error (set_nth i x l) i = Some x.
  Proof. induction l as [|z l IH]; intros [|i] x y H; simpl; try discriminate; eauto. Qed.

  Lemma nth_set_nth_neq l : forall i j x, i <> j -> nth_error (set_nth i x l) j = nth_error l j.
  Proof. induction l as [|z l IH]; intros [|i] [|j] x H; simpl; auto; congruence. Qed.

  Lemma Forall_set_nth (P : A -> Prop) l : forall i x, Forall P l -> P x -> Forall P (set_nth i x l).
  Proof. induction l as [|y l IH]; intros [|i] x Hl Hx; simpl; auto; inversion Hl; auto. Qed.

  Lemma Forall_nth_error (P : A -> Prop) l i x : Forall P l -> nth_error l i = Some x -> P x.
  Proof. intros Hl Hn. eapply Forall_forall; [exact Hl|eapply nth_error_In; exact Hn]. Qed.

  Lemma map_set_nth (f : A -> B) l : forall i x s,
    nth_error l i = Some s -> f x = f s -> map f (set_nth i x l) = map f l.
  Proof. induction l as [|y l IH]; intros [|i] x s Hn Hf; simpl in *; try discriminate; [congruence|f_equal; eauto]. Qed.

  Lemma set_nth_cut l : forall i x y, nth_error l i = Some y -> set_nth i x l = firstn i l ++ x :: skipn (S i) l.
  Proof. induction l as [|z l IH]; intros [|i] x y H; simpl; try discriminate; [reflexivity|f_equal; eauto]. Qed.

  Lemma skipn_set_nth_lt l : forall k j x, (j < k)%nat -> skipn k (set_nth j x l) = skipn k l.
  Proof. induction l as [|y l IH]; intros [|k] [|j] x H; auto; try lia. apply IH. lia. Qed.

  Lemma skipn_set_nth_ge l : forall k j x, (k <= j)%nat -> skipn k (set_nth j x l) = set_nth (j - k) x (skipn k l).
  Proof.
    induction l as [|y l IH]; intros [|k] [|j] x H; simpl; auto; try lia.
    - now destruct (j - k)%nat.
    - apply IH. lia.
  Qed.

  Lemma firstn_set_nth_ge l : forall k j x, (k <= j)%nat -> firstn k (set_nth j x l) = firstn k l.
  Proof. induction l as [|y l IH]; intros [|k] [|j] x H; simpl; auto; try lia. f_equal. apply IH. lia. Qed.

  Lemma skipn_cut l : forall k i, (k <= i)%nat -> skipn k l = skipn k (firstn i l) ++ skipn i l.
  Proof.
    induction l as [|x l IH]; intros [|k] [|i] H; simpl; auto; try lia; [now rewrite firstn_skipn|apply IH; lia].
  Qed.

  Lemma skipn_nth l : forall k x, nth_error l k = Some x -> skipn k l = x :: skipn (S k) l.
  Proof. induction l as [|y l IH]; intros [|k] x H; simpl in *; try discriminate; [congruence|auto]. Qed.

  Lemma nth_skipn l : forall k j, (k <= j)%nat -> nth_error (skipn k l) (j - k) = nth_error l j.
  Proof.
    induction l as [|y l IH]; intros [|k] [|j] H; simpl; auto; try lia.
    - now destruct (j - k)%nat.
    - apply IH. lia.
  Qed.

  Lemma nth_remove_nth_lt l : forall j i, (j < i)%nat -> nth_error (remove_nth j l) (i - 1) = nth_error l i.
  Proof.
    induction l as [|x l IH]; intros [|j] [|i] H; simpl; try lia.
    - now destruct (i - 0)%nat.
    - now destruct (i - 0)%nat.
    - now rewrite Nat.sub_0_r.
    - destruct i as [|i]; [lia|]. rewrite <- (IH j (S i)) by lia. simpl. now rewrite Nat.sub_0_r.
  Qed.

  Lemma nth_remove_nth_gt l : forall j i, (i < j)%nat -> nth_error (remove_nth j l) i = nth_error l i.
  Proof. induction l as [|x l IH]; intros [|j] [|i] H; auto; try lia. apply IH. lia. Qed.

  Lemma map_remove_nth (f : A -> B) l : forall i, map f (remove_nth i l) = remove_nth i (map f l).
  Proof. induction l as [|x l IH]; intros [|i]; simpl; congruence. Qed.

  Lemma Forall_remove_nth (P : A -> Prop) l : forall i, Forall P l -> Forall P (remove_nth i l).
  Proof. induction l as [|x l IH]; intros [|i] H; simpl; auto; inversion H; auto. Qed.

  (** [firstn n l ++ x :: skipn n l]: [x] inserted in front of position [n] *)
  Lemma nth_insert_lt l x : forall n i, (i < n)%nat -> (i < length l)%nat ->
    nth_error (firstn n l ++ x :: skipn n l) i = nth_error l i.
  Proof. induction l as [|y l IH]; intros [|n] [|i] H Hl; simpl in *; auto; try lia. apply IH; lia. Qed.

  Lemma nth_insert_ge l x : forall n i, (n <= i)%nat -> nth_error (firstn n l ++ x :: skipn n l) (S i) = nth_error l i.
  Proof. induction l as [|y l IH]; intros [|n] [|i] H; simpl in *; auto; try lia. apply IH; lia. Qed.

  Lemma Forall_insert (P : A -> Prop) l n x : Forall P l -> P x -> Forall P (firstn n l ++ x :: skipn n l).
  Proof.
    intros Hl Hx. rewrite <- (firstn_skipn n l) in Hl. apply Forall_app in Hl as [H1 H2].
    apply Forall_app. auto.
  Qed.
End Positions.

(** the edits of one stub, which the model writes out field by field *)
Definition set_inq (s : stub) (q : list chunk) : stub :=
  mkStub (s_tx s) (s_eff s) (s_st s) (s_ps s) q (s_cap s) (s_in_closed s) (s_closed s).
Definition shut_input (s : stub) : stub :=
  mkStub (s_tx s) (s_eff s) (s_st s) (s_ps s) (s_inq s) (s_cap s) true (s_closed s).
Definition set_closed (s : stub) : stub :=
  mkStub (s_tx s) (s_eff s) (s_st s) (s_ps s) (s_inq s) (s_cap s) (s_in_closed s) true.
Definition set_tx (s : stub) (tx : toxic) : stub :=
  mkStub tx (s_eff s) (s_st s) (s_ps s) (s_inq s) (s_cap s) (s_in_closed s) (s_closed s).
Definition fresh_stub (tx : toxic) (eff : bool) (now : Z) : stub :=
  let ps := new_pstate tx in
  mkStub tx eff (init_state (if eff then tx else TNoop) ps now) ps [] (buffer_size tx) false false.
Definition stillborn_stub (tx : toxic) : stub :=
  mkStub tx false Exited (new_pstate tx) [] (buffer_size tx) true true.
(** [go stub.Run(tx)] on a stub whose stage has returned; a stateful toxic keeps the stub's state *)
Definition restarted (s : stub) (tx : toxic) (eff : bool) (now : Z) : stub :=
  let ps := if is_stateful tx then (match s_ps s with Some k => Some k | None => Some 0 end) else s_ps s in
  mkStub tx eff (init_state (if eff then tx else TNoop) ps now) ps (s_inq s) (s_cap s) (s_in_closed s) (s_closed s).
Definition set_stubs (l : link) (ss : list stub) : link :=
  mkLink (l_now l) (l_src l) (l_rest l) (l_rd l) ss (l_draws l) (l_trace l) (l_sink_closed l)
         (l_rx l) (l_tx l) (l_sink_delay l) (l_wr_ready l).
Definition set_draws (l : link) (ds : list Z) : link :=
  mkLink (l_now l) (l_src l) (l_rest l) (l_rd l) (l_stubs l) ds (l_trace l) (l_sink_closed l)
         (l_rx l) (l_tx l) (l_sink_delay l) (l_wr_ready l).
Definition insert_stub (l : link) (i : nat) (st : stub) : link :=
  set_stubs l (firstn (S i) (l_stubs l) ++ st :: skipn (S i) (l_stubs l)).

Lemma sends_live st c : sends st = Some c -> st <> Exited.
Proof. intros H ->. discriminate. Qed.

Lemma listens_idle s : listens_input s = true -> exists acc tmr, s_st s = Idle acc tmr.
Proof. unfold listens_input. destruct (s_st s); try discriminate. eauto. Qed.

Lemma upd_stub_nth l i s y : nth_error (l_stubs l) i = Some y -> nth_error (l_stubs (upd_stub l i s)) i = Some s.
Proof. apply nth_set_nth_eq. Qed.

Lemma upd_stub_other l i j s : i <> j -> nth_error (l_stubs (upd_stub l i s)) j = nth_error (l_stubs l) j.
Proof. apply nth_set_nth_neq. Qed.

(** [stub_input] and [stub_sent] without their [let]: the fields of the result then compute *)
Lemma stub_input_eq l i s c q :
  stub_input l i s c q =
  set_draws (upd_stub l i (set_inq (with_st s (fst (on_input (eff_tx s) (s_ps s) (l_now l) (l_draws l) c (s_st s)))) q))
            (snd (on_input (eff_tx s) (s_ps s) (l_now l) (l_draws l) c (s_st s))).
Proof. unfold stub_input. now destruct (on_input _ _ _ _ _ _). Qed.

Lemma stub_sent_eq l i s :
  stub_sent l i s =
  upd_stub l i (mkStub (s_tx s) (s_eff s) (fst (on_sent (eff_tx s) (s_ps s) (l_now l) (s_st s)))
                       (snd (on_sent (eff_tx s) (s_ps s) (l_now l) (s_st s)))
                       (s_inq s) (s_cap s) (s_in_closed s) (s_closed s)).
Proof. unfold stub_sent. now destruct (on_sent _ _ _ _). Qed.

Inductive offered (l : link) (j : nat) (c : chunk) : link -> Prop :=
| to_sink (Hn : nth_error (l_stubs l) j = None) (Hw : l_wr_ready l <= l_now l) : offered l j c (deliver_sink l c)
| to_queue t (Hn : nth_error (l_stubs l) j = Some t) (Hcap : 0 < s_cap t) :
    offered l j c (upd_stub l j (set_inq t (s_inq t ++ [c])))
| to_stage t acc tmr (Hn : nth_error (l_stubs l) j = Some t) (Hcap : s_cap t <= 0)
    (Hst : s_st t = Idle acc tmr) (Hq : s_inq t = []) :
    offered l j c (stub_input l j t (Some c) (s_inq t)).   (* spelled as [offer] writes it: the queue is empty *)

Lemma offer_offered l j c l1 : offer l j c = Some l1 -> offered l j c l1.
Proof.
  (* stated for both outcomes, so that the tests can be walked: a [None] branch closes by [exact I] *)
  enough (H : match offer l j c with Some l1 => offered l j c l1 | None => True end) by (intros E; now rewrite E in H).
  unfold offer. destruct (nth_error (l_stubs l) j) as [t|] eqn:Hn.
  - destruct (0 <? s_cap t) eqn:Hcap.
    + destruct (zlen (s_inq t) <? s_cap t); [|exact I]. apply to_queue; [exact Hn|lia].
    + destruct (listens_input t) eqn:Hl; [|exact I]. destruct (s_inq t) eqn:Hq; [|exact I].
      rewrite <- Hq. destruct (listens_idle t Hl) as (acc & tmr & Hst). apply to_stage with acc tmr; auto. lia.
  - destruct (l_wr_ready l <=? l_now l) eqn:Hw; [|exact I]. apply to_sink; [exact Hn|lia].
Qed.

Lemma deliver_sink_stubs l c : l_stubs (deliver_sink l c) = l_stubs l.
Proof. unfold deliver_sink. now destruct (_ =? 0). Qed.

(** an empty chunk is not written, which shows in the trace and not in the bytes *)
Lemma deliver_sink_bytes l c :
  sink_bytes (deliver_sink l c) = sink_bytes l ++ cdata c /\ l_tx (deliver_sink l c) = l_tx l + zlen (cdata c).
Proof.
  unfold deliver_sink. destruct (zlen (cdata c) =? 0) eqn:E.
  - assert (Hc : cdata c = []) by (apply zlen_nil_iff; lia). rewrite Hc, app_nil_r. split; [reflexivity|cbn; lia].
  - cbn. rewrite map_app, concat_app. cbn. now rewrite app_nil_r.
Qed.

(** the reader's side of the link, which no stub edit and no hand-off touches *)
Definition reader_of (l : link) := (l_rd l, l_rest l, l_src l, l_rx l).

Lemma offer_other l j c l1 i : offer l j c = Some l1 -> i <> j -> nth_error (l_stubs l1) i = nth_error (l_stubs l) i.
Proof.
  intros H%offer_offered Hne. destruct H.
  - now rewrite deliver_sink_stubs.
  - apply upd_stub_other. congruence.
  - rewrite stub_input_eq. apply nth_set_nth_neq. congruence.
Qed.

Lemma offer_reader l j c l1 : offer l j c = Some l1 -> reader_of l1 = reader_of l.
Proof.
  intros H%offer_offered. destruct H; try reflexivity.
  - unfold deliver_sink. now destruct (_ =? 0).
  - now rewrite stub_input_eq.
Qed.

Lemma close_downstream_stubs l j :
  l_stubs (close_downstream l j) =
  match nth_error (l_stubs l) j with Some t => set_nth j (shut_input t) (l_stubs l) | None => l_stubs l end.
Proof. unfold close_downstream. now destruct (nth_error (l_stubs l) j). Qed.

Inductive sched_does (l : link) : act -> link -> Prop :=
| does_input i s acc tmr c q (Hn : nth_error (l_stubs l) i = Some s) (Hst : s_st s = Idle acc tmr)
    (* [Some c0]: the head of the queue; [None]: the nil of a closed, drained input *)
    (Hq : match c with Some c0 => s_inq s = c0 :: q | None => s_inq s = [] /\ q = [] /\ s_in_closed s = true end) :
    sched_does l (AMove i) (stub_input l i s c q)
| does_send i s c l1 (Hn : nth_error (l_stubs l) i = Some s) (Hc : sends (s_st s) = Some c)
    (Ho : offer l (S i) c = Some l1) (Hn1 : nth_error (l_stubs l1) i = Some s) :
    sched_does l (AMove i) (stub_sent l1 i s)
| does_close i s (Hn : nth_error (l_stubs l) i = Some s) (Hst : s_st s = Closing) :
    sched_does l (AMove i) (close_downstream (upd_stub l i (set_closed (with_st s Exited))) (S i))
| does_timer i s inp intr dl (Hn : nth_error (l_stubs l) i = Some s)
    (Hm : mode_of (s_st s) = MSelect inp intr (Some dl)) (Hdl : dl <= l_now l) :
    sched_does l (ATimer i) (upd_stub l i (with_st s (on_timer (eff_tx s) (l_now l) (s_st s))))
| does_give_up i s c dl (Hn : nth_error (l_stubs l) i = Some s) (Hst : s_st s = SendT c dl) (Hdl : dl <= l_now l) :
    sched_does l (ASendTimeout i) (upd_stub l i (with_st s Exited))
| rd_send c l1 (Hrd : l_rd l = RSend c) (Ho : offer l 0 c = Some l1) :
    sched_does l AReader (set_rd l1 RIdle (l_src l1) (l_rest l1) (l_rx l1))
| rd_take d src (Hrd : l_rd l = RIdle) (Hd : d <> [])
    (Hfrom : l_rest l = d /\ l_src l = src \/ l_rest l = [] /\ (exists t, l_src l = SWrite t d :: src)) :
    sched_does l AReader (take_piece l d src)
| rd_skip t src (Hrd : l_rd l = RIdle) (Hr : l_rest l = []) (Hs : l_src l = SWrite t [] :: src) :
    sched_does l AReader (set_rd l RIdle src [] (l_rx l))
| rd_close t src (Hrd : l_rd l = RIdle) (Hr : l_rest l = []) (Hs : l_src l = SClose t :: src) :
    sched_does l AReader (close_downstream (set_rd l RClosed src [] (l_rx l)) 0)
| does_tick t (Ht : l_now l <= t) : sched_does l (ATick t) (set_now l t).

Theorem sched_step_does l a l' : sched_step l a = Some l' -> sched_does l a l'.
Proof.
  enough (H : match sched_step l a with Some l' => sched_does l a l' | None => True end) by (intros E; now rewrite E in H).
  destruct a as [i|i|i| |t]; cbn [sched_step].
  - unfold stub_move. destruct (nth_error (l_stubs l) i) as [s|] eqn:Hn; [|exact I].
    destruct (s_st s) as [acc tmr|c k|c dl| | | | | | | | | |] eqn:Hst; cbn [mode_of]; try exact I.
    2,3: (* Send, SendT *) destruct (offer l (S i) c) as [l1|] eqn:Ho; [|exact I];
         assert (Hn1 : nth_error (l_stubs l1) i = Some s) by (rewrite <- Hn; apply (offer_other _ _ _ _ i Ho); lia);
         rewrite Hn1; apply does_send with c; auto; now rewrite Hst.
    + destruct (s_inq s) as [|c q] eqn:Hq; [destruct (s_in_closed s) eqn:Hc; [|exact I]|]; now apply does_input with acc tmr.
    + now apply does_close.
  - unfold stub_timer. destruct (nth_error (l_stubs l) i) as [s|] eqn:Hn; [|exact I].
    destruct (mode_of (s_st s)) as [inp intr [dl|]| | | | |] eqn:Hm; try exact I. cbn [timer_due].
    destruct (dl <=? l_now l) eqn:Hd; [|exact I]. eapply does_timer; eauto. lia.
  - unfold stub_send_timeout. destruct (nth_error (l_stubs l) i) as [s|] eqn:Hn; [|exact I].
    destruct (s_st s) as [| |c dl| | | | | | | | | |] eqn:Hst; cbn [mode_of]; try exact I.
    destruct (dl <=? l_now l) eqn:Hd; [|exact I]. eapply does_give_up; eauto. lia.
  - unfold try_reader. destruct (l_rd l) as [|c|] eqn:Hrd; [| |exact I].
    + destruct (l_rest l) as [|b rest] eqn:Hrest; [|apply rd_take; [assumption|discriminate|auto]].
      destruct (l_src l) as [|[t d|t] src] eqn:Hsrc; [exact I| |]; (destruct (t <=? l_now l); [|exact I]).
      * destruct d as [|b d]; [now apply rd_skip with t|]. apply rd_take; [assumption|discriminate|eauto].
      * now apply rd_close with t.
    + destruct (offer l 0 c) as [l1|] eqn:Ho; [|exact I]. now apply rd_send with c.
  - destruct (l_now l <=? t) eqn:Ht; [|exact I]. apply does_tick. lia.
Qed.

Lemma sched_run_ind (P : link -> Prop) :
  (forall l a l', P l -> sched_step l a = Some l' -> P l') ->
  forall sigma l l', sched_run l sigma = Some l' -> P l -> P l'.
Proof.
  intros Hstep. induction sigma as [|a sigma IH]; intros l l' H Hi; simpl in H; [now inversion H; subst|].
  destruct (sched_step l a) as [l1|] eqn:Hs; [|discriminate]. eauto.
Qed.

(** the executable big step follows one schedule of the all-schedules system *)
Lemma try_stubs_sched l k l' : try_stubs l k = Some l' -> exists a, sched_step l a = Some l'.
Proof.
  induction k as [|k IH]; simpl; [discriminate|].
  unfold try_stub.
  destruct (stub_move l k) eqn:Hm; [intros H; inversion H; subst; exists (AMove k); exact Hm|].
  destruct (stub_timer l k) eqn:Ht; [intros H; inversion H; subst; exists (ATimer k); exact Ht|].
  destruct (stub_send_timeout l k) eqn:Hx; [intros H; inversion H; subst; exists (ASendTimeout k); exact Hx|].
  exact IH.
Qed.

Lemma step_now_sched l l' : step_now l = Some l' -> exists a, sched_step l a = Some l'.
Proof.
  unfold step_now. destruct (try_stubs l (length (l_stubs l))) as [l1|] eqn:Ht.
  - intros [= <-]. exact (try_stubs_sched _ _ _ Ht).
  - now exists AReader.
Qed.

Lemma run_quiet_sched fuel : forall horizon l l',
  run_quiet fuel horizon l = Some l' -> exists sigma, sched_run l sigma = Some l'.
Proof.
  induction fuel as [|f IH]; intros horizon l l' H; simpl in H; [discriminate|].
  destruct (step_now l) as [l1|] eqn:Hs.
  - destruct (IH _ _ _ H) as [sigma Hsig]. destruct (step_now_sched _ _ Hs) as [a Ha].
    exists (a :: sigma). simpl. now rewrite Ha.
  - destruct (next_time l) as [t|].
    + destruct (t <=? horizon); [|inversion H; exists []; reflexivity].
      destruct (IH _ _ _ H) as [sigma Hsig].
      exists (ATick (Z.max t (l_now l)) :: sigma). simpl.
      replace (l_now l <=? Z.max t (l_now l)) with true by lia. exact Hsig.
    + inversion H. exists []. reflexivity.
Qed.

Lemma step_reader l a l' : sched_step l a = Some l' -> a <> AReader -> reader_of l' = reader_of l.
Proof.
  intros H%sched_step_does. destruct H; try easy; intros _.
  - now rewrite stub_input_eq.
  - rewrite stub_sent_eq. exact (offer_reader _ _ _ _ Ho).
  - unfold close_downstream. now destruct (nth_error _ (S i)).
Qed.

(** the stage of [s] has returned and the stub is still open: what the flush loop, the splice and a
    restart require *)
Definition parked (s : stub) : Prop := s_st s = Exited /\ s_closed s = false.

Inductive ctl_does (l : link) : cact -> link -> Prop :=
| ctl_interrupt i s (Hn : nth_error (l_stubs l) i = Some s) (Hl : listens_interrupt s = true) :
    ctl_does l (CInterrupt i) (upd_stub l i (with_st s (on_interrupt (l_now l) (s_st s))))
| ctl_restart i s tx eff (Hn : nth_error (l_stubs l) i = Some s) (Hp : parked s) :
    ctl_does l (CRestart i tx eff) (upd_stub l i (restarted s tx eff (l_now l)))
| ctl_append tx eff : ctl_does l (CAppend tx eff) (set_stubs l (l_stubs l ++ [fresh_stub tx eff (l_now l)]))
| ctl_forward i s c q l1 (Hn : nth_error (l_stubs l) i = Some s) (Hp : parked s) (Hq : s_inq s = c :: q)
    (Ho : offer l (S i) c = Some l1) (Hn1 : nth_error (l_stubs l1) i = Some s) :
    ctl_does l (CForward i) (upd_stub l1 i (set_inq s q))
| ctl_drop i s c q (Hn : nth_error (l_stubs l) i = Some s) (Hp : parked s) (Hq : s_inq s = c :: q) :
    ctl_does l (CForwardDrop i) (upd_stub l i (set_inq s q))
| ctl_delete i s (Hn : nth_error (l_stubs l) i = Some s) (Hp : parked s) (Hq : s_inq s = []) (Hi : i <> O) :
    ctl_does l (CDelete i) (set_stubs l (remove_nth i (l_stubs l)))
| ctl_sever i s (Hn : nth_error (l_stubs l) i = Some s) (Hp : parked s) :
    ctl_does l (CSever i) (close_downstream (upd_stub l i (set_closed s)) (S i))
| ctl_set_tx i s tx (Hn : nth_error (l_stubs l) i = Some s) : ctl_does l (CSetTx i tx) (upd_stub l i (set_tx s tx))
| ctl_flush_recv j s sp c (Hn : nth_error (l_stubs l) (S j) = Some s) (Hnp : nth_error (l_stubs l) j = Some sp)
    (Hp : parked s) (Hcap : s_cap s = 0) (Hq : s_inq s = []) (Hc : sends (s_st sp) = Some c) :
    ctl_does l (CFlushRecv (S j)) (stub_sent (upd_stub l (S j) (set_inq s [c])) j sp)
| ctl_close_end i s (Hn : nth_error (l_stubs l) i = Some s) (Hp : parked s) (Hic : s_in_closed s = true) (Hq : s_inq s = []) :
    ctl_does l (CCloseEnd i) (close_downstream (upd_stub l i (set_closed s)) (S i))
| ctl_insert_after i tx eff (Hi : (i < length (l_stubs l))%nat) :
    ctl_does l (CInsertAfter i tx eff) (insert_stub l i (fresh_stub tx eff (l_now l)))
| ctl_insert_dead i tx (Hi : (i < length (l_stubs l))%nat) :
    ctl_does l (CInsertDead i tx) (insert_stub l i (stillborn_stub tx)).

Lemma parked_guard s : is_exited s && negb (s_closed s) = true -> parked s.
Proof.
  unfold is_exited, parked. destruct (s_st s); try discriminate. destruct (s_closed s); [discriminate|auto].
Qed.

Theorem ctl_step_does l a l' : ctl_step l a = Some l' -> ctl_does l a l'.
Proof.
  enough (H : match ctl_step l a with Some l' => ctl_does l a l' | None => True end) by (intros E; now rewrite E in H).
  destruct a as [i|i tx eff|tx eff|i|i|i|i|i tx|i|i|i tx eff|i tx]; cbn [ctl_step];
    try (destruct (nth_error (l_stubs l) i) as [s|] eqn:Hn; [|exact I]).
  - destruct (listens_interrupt s) eqn:Hl; [|exact I]. now apply ctl_interrupt.
  - destruct (_ && _) eqn:Hg; [|exact I]. apply ctl_restart; [assumption|now apply parked_guard].
  - apply ctl_append.
  - destruct (_ && _) eqn:Hg; [|exact I]. destruct (s_inq s) as [|c q] eqn:Hq; [exact I|].
    destruct (offer l (S i) c) as [l1|] eqn:Ho; [|exact I].
    assert (Hn1 : nth_error (l_stubs l1) i = Some s) by (rewrite <- Hn; apply (offer_other _ _ _ _ i Ho); lia).
    rewrite Hn1. apply ctl_forward with c; auto using parked_guard.
  - destruct (_ && _) eqn:Hg; [|exact I]. destruct (s_inq s) as [|c q] eqn:Hq; [exact I|].
    apply ctl_drop with c; auto using parked_guard.
  - destruct (_ && _) eqn:Hg; [|exact I]. apply andb_prop in Hg as [Hg Hi]. apply andb_prop in Hg as [Hg Hq].
    apply ctl_delete with s; auto using parked_guard.
    + now destruct (s_inq s).
    + intros ->. discriminate.
  - destruct (_ && _) eqn:Hg; [|exact I]. apply ctl_sever; auto using parked_guard.
  - now apply ctl_set_tx.
  - destruct i as [|j]; [exact I|].
    destruct (nth_error (l_stubs l) (S j)) as [s|] eqn:Hn; [|exact I].
    destruct (nth_error (l_stubs l) j) as [sp|] eqn:Hnp; [|exact I].
    destruct (_ && _) eqn:Hg; [|exact I]. apply andb_prop in Hg as [Hg Hq]. apply andb_prop in Hg as [Hg Hc].
    assert (Hgo : forall c, sends (s_st sp) = Some c ->
              ctl_does l (CFlushRecv (S j)) (stub_sent (upd_stub l (S j) (set_inq s [c])) j sp)).
    { intros c Hs. apply ctl_flush_recv; auto using parked_guard; [now apply Z.eqb_eq|now destruct (s_inq s)]. }
    destruct (s_st sp); try exact I; apply Hgo; reflexivity.
  - destruct (_ && _) eqn:Hg; [|exact I]. apply andb_prop in Hg as [Hg Hq]. apply andb_prop in Hg as [Hg Hc].
    apply ctl_close_end; auto using parked_guard. now destruct (s_inq s).
  - destruct (Nat.ltb_spec i (length (l_stubs l))); [|exact I]. now apply ctl_insert_after.
  - destruct (Nat.ltb_spec i (length (l_stubs l))); [|exact I]. now apply ctl_insert_dead.
Qed.
