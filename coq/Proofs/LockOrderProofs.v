(** Lock order: if a ranking orders every edge of the "requested while held" relation, then in every
    state whose threads follow that relation the waits-for graph has no cycle and every chain of
    waiting threads ends, after at most [bound] steps, at a thread that is not waiting for a lock. *)
From Coq Require Import String List Arith Bool Lia Relations.
From TP Require Import Model.LockOrder Extracted.
Import ListNotations.

(** a relation along which a rank in [nat] grows has no cycle *)
Section Ranked.
  Context {A : Type} (R : A -> A -> Prop) (f : A -> nat) (R_lt : forall x y, R x y -> f x < f y).

  Lemma ranked_trans x y : clos_trans A R x y -> f x < f y.
  Proof. induction 1; eauto using Nat.lt_trans. Qed.

  Lemma ranked_acyclic x : ~ clos_trans A R x x.
  Proof. intros H. apply ranked_trans, Nat.lt_irrefl in H. exact H. Qed.
End Ranked.

Definition holds (st : state) (j : nat) (l : lock) : Prop :=
  exists th, nth_error st j = Some th /\ In l (held th).

Definition waits_for (st : state) (i j : nat) : Prop :=
  exists th l, nth_error st i = Some th /\ want th = Some l /\ i <> j /\ holds st j l.

Definition follows (es : list edge) (st : state) : Prop :=
  forall th l h, In th st -> want th = Some l -> In h (held th) -> In (fst h, fst l) es.

(** the rank of a thread is that of the lock it wants; a thread that wants none is above all locks *)
Definition wrank (t : rank_tbl) (st : state) (i : nat) : nat :=
  match nth_error st i with
  | Some {| want := Some l |} => lookup t (fst l)
  | _ => bound t
  end.

Lemma lookup_lt_bound t c : lookup t c < bound t.
Proof.
  unfold bound. induction t as [|[k v] t IH]; cbn [lookup map snd list_max fold_right]; [lia|].
  change (fold_right Nat.max 0 (map snd t)) with (list_max (map snd t)).
  destruct (String.eqb k c); lia.
Qed.

Lemma wrank_le_bound t st i : wrank t st i <= bound t.
Proof. unfold wrank. destruct (nth_error st i) as [[h [l|]]|]; auto using Nat.lt_le_incl, lookup_lt_bound. Qed.

Lemma ranks_ok_edge t es a b : ranks_ok t es = true -> In (a, b) es -> lookup t a < lookup t b.
Proof. intros H Hin. apply Nat.ltb_lt, (proj1 (forallb_forall _ _) H (a, b) Hin). Qed.

Lemma lock_eqb_eq a b : lock_eqb a b = true -> a = b.
Proof.
  destruct a, b. unfold lock_eqb. cbn. intros H. apply andb_prop in H as [H1 H2].
  apply String.eqb_eq in H1. apply Nat.eqb_eq in H2. now subst.
Qed.

Lemma holdsb_In th l : holdsb th l = true -> In l (held th).
Proof. intros H. apply existsb_exists in H as (x & Hin & He). now rewrite (lock_eqb_eq _ _ He). Qed.

Lemma holder_from_sound st i l j : forall k, holder_from st k i l = Some j -> j <> i /\ k <= j /\ holds st (j - k) l.
Proof.
  induction st as [|th st IH]; intros k H; cbn in H; [discriminate|].
  destruct (negb (Nat.eqb k i) && holdsb th l) eqn:E.
  - injection H as <-. apply andb_prop in E as [E1 E2]. apply negb_true_iff, Nat.eqb_neq in E1.
    rewrite Nat.sub_diag. repeat split; trivial. exists th. auto using holdsb_In.
  - apply IH in H as (Hne & Hle & Hh). replace (j - k) with (S (j - S k)) by lia. repeat split; trivial. lia.
Qed.

(** the executable side: [blocker] finds a thread waited for *)
Lemma blocker_sound st i j : blocker st i = Some j -> waits_for st i j.
Proof.
  unfold blocker. destruct (nth_error st i) as [th|] eqn:Hi; [|discriminate].
  destruct (want th) as [l|] eqn:Hw; [|discriminate]. intros H.
  apply holder_from_sound in H as (Hne & _ & Hh). rewrite Nat.sub_0_r in Hh. exists th, l. auto.
Qed.

Section Ordered.
  Context (t : rank_tbl) (es : list edge) (Hr : ranks_ok t es = true) (st : state) (Hf : follows es st).

  Lemma waits_rank i j : waits_for st i j -> wrank t st i < wrank t st j.
  Proof.
    intros (thi & l & Hi & Hwi & _ & thj & Hj & Hin). unfold wrank. rewrite Hi, Hj. destruct thi, thj as [hj [l'|]]; cbn in *; subst.
    - eauto using ranks_ok_edge, nth_error_In.
    - apply lookup_lt_bound.
  Qed.

  Theorem no_wait_cycle i : ~ clos_trans nat (waits_for st) i i.
  Proof. exact (ranked_acyclic _ _ waits_rank i). Qed.

  (** the executable chase *)
  Lemma chase_ends_n n : forall i, bound t <= wrank t st i + n -> blocker st (chase n st i) = None.
  Proof.
    induction n as [|n IH]; intros i Hb; cbn; destruct (blocker st i) as [j|] eqn:Hbl; trivial;
      apply blocker_sound, waits_rank in Hbl.
    - pose proof (wrank_le_bound t st j). lia.
    - apply IH. lia.
  Qed.
End Ordered.

Theorem chase_ends t es : ranks_ok t es = true ->
  forall st i, follows es st -> blocker st (chase (bound t) st i) = None.
Proof. intros Hr st i Hf. apply (chase_ends_n t es Hr st Hf). lia. Qed.

Lemma edge_in_In es a b : edge_in es a b = true -> In (a, b) es.
Proof.
  intros H. apply existsb_exists in H as ([x y] & Hin & He). cbn in He.
  apply andb_prop in He as [H1 H2]. apply String.eqb_eq in H1, H2. subst. exact Hin.
Qed.

Lemma allowed_edges es th l h : allowed es th l = true -> In h (held th) -> In (fst h, fst l) es.
Proof. intros H Hh. apply edge_in_In, (proj1 (forallb_forall _ _) H h Hh). Qed.

Lemma followsb_follows es st : followsb es st = true -> follows es st.
Proof.
  intros H th l h Hin Hw. apply (proj1 (forallb_forall _ _) H) in Hin. rewrite Hw in Hin. now apply allowed_edges with (th := th).
Qed.

(** the relation regenerated from the working tree *)
Lemma extracted_ranks_ok : ranks_ok (compute_ranks lock_edges) lock_edges = true.
Proof. vm_compute. reflexivity. Qed.

(** non-vacuity: a stop request (holds the proxy's lock, waits for the accept loop's tomb), the goroutine that
    ends that tomb (waits for the accept tomb), the accept loop (holds the accept tomb, wants the toxic
    collection's lock for StartLink) and a toxic request that holds that lock and runs *)
Definition stop_state : state :=
  [ {| held := [("Proxy", 0)]; want := Some ("tomb", 0) |};
    {| held := [("tomb", 0)]; want := Some ("acceptTomb", 0) |};
    {| held := [("acceptTomb", 0)]; want := Some ("ToxicCollection", 0) |};
    {| held := [("ToxicCollection", 0)]; want := None |} ]%string.

(** tightness: let a toxic request ask for the proxy's lock while it holds the toxic collection's (seed C16-c):
    the same four threads then all wait for each other, and the executable check rejects the relation
    (Properties/C16.v: C16_inverted_order_deadlocks) *)
Definition inverted_state : state :=
  [ {| held := [("Proxy", 0)]; want := Some ("tomb", 0) |};
    {| held := [("tomb", 0)]; want := Some ("acceptTomb", 0) |};
    {| held := [("acceptTomb", 0)]; want := Some ("ToxicCollection", 0) |};
    {| held := [("ToxicCollection", 0)]; want := Some ("Proxy", 0) |} ]%string.

Lemma in_set_thread st : forall t th x, In x (set_thread st t th) -> x = th \/ In x st.
Proof.
  induction st as [|y r IH]; intros [|t] th x; cbn; try tauto.
  - intros [<-|H]; tauto.
  - intros [H|H]; [|apply IH in H]; tauto.
Qed.

Lemma in_remove_lock l ls : forall x, In x (remove_lock l ls) -> In x ls.
Proof. induction ls as [|y r IH]; cbn; [tauto|]. destruct (lock_eqb l y); [tauto|]. intros x [H|H]; auto. Qed.

Lemma follows_set_thread es st t th :
  follows es st -> (forall l h, want th = Some l -> In h (held th) -> In (fst h, fst l) es) ->
  follows es (set_thread st t th).
Proof. intros Hf Hth th0 l h Hin. apply in_set_thread in Hin as [->|Hin]; eauto. Qed.

(** every state an execution reaches follows the relation: a thread's entry changes only when it
    stops wanting (it got the lock, or released one) or starts wanting what [allowed] admits *)
Lemma lstep_follows es st op st' : follows es st -> lstep es st op = Some st' -> follows es st'.
Proof.
  intros Hf H. destruct op as [t l|t l]; cbn in H; destruct (nth_error st t) as [th|]; try discriminate.
  - destruct (allowed es th l) eqn:Ha; [|discriminate]. cbn in H.
    destruct (match want th with Some l' => lock_eqb l l' | None => true end); [|discriminate].
    destruct (is_free st l); injection H as <-; apply follows_set_thread; trivial; intros l0 h Hw; [discriminate|].
    injection Hw as <-. now apply allowed_edges.
  - destruct (want th); [discriminate|]. destruct (holdsb th l); [|discriminate].
    injection H as <-. apply follows_set_thread; trivial. discriminate.
Qed.

Lemma idle_follows es n : follows es (idle_threads n).
Proof. intros th l h Hin Hw _. apply repeat_spec in Hin. now subst th. Qed.

Theorem lrun_follows es : forall ops st st', follows es st -> lrun es st ops = Some st' -> follows es st'.
Proof.
  induction ops as [|op r IH]; intros st st' Hf H; cbn in H; [now injection H as <-|].
  destruct (lstep es st op) eqn:Hs; [|discriminate]. eauto using lstep_follows.
Qed.

Theorem ordered_executions t es : ranks_ok t es = true ->
  forall st0, follows es st0 -> forall ops st, lrun es st0 ops = Some st ->
  (forall i, ~ clos_trans nat (waits_for st) i i) /\ (forall i, blocker st (chase (bound t) st i) = None).
Proof.
  intros Hr st0 Hf ops st H. apply lrun_follows in H; trivial.
  split; intros i; [now apply (no_wait_cycle t es)|now apply chase_ends with es].
Qed.
