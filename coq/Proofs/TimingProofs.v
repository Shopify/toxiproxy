(** Stage-level timing lemmas for latency (C08) and timeout (C10); timers never fire early (C08, C13). *)
From TP Require Import Model.Prelude Extracted Model.Toxics Model.Timed Proofs.GoArith Proofs.StageContract
     Proofs.StageRun Proofs.StageFeed.

(** magnitudes for which the Duration arithmetic does not wrap (about 146 years either way, in milliseconds) *)
Definition ms_ok (x : Z) : Prop := - 4611686018427 <= x <= 4611686018427.

Lemma ms_ns x : ms_ok x -> wrap64 (x * 1000000) = x * 1000000.
Proof. intros H. apply wrap64_id. unfold ms_ok in H. lia. Qed.

Lemma feed_rest tx fuel ps s arr : (forall acc tmr, s <> Idle acc tmr) -> feed tx fuel ps s arr = ([], s, ps).
Proof.
  intros Hs. induction arr as [|[t c] arr IH]; [reflexivity|]. cbn [feed].
  replace (feed_one tx fuel ps s t c) with (@nil (Z * bytes), s, ps) by (destruct s; congruence || reflexivity).
  now rewrite IH.
Qed.

(** the delay drawn for one chunk: latency when jitter <= 0, else latency - jitter + r with
    0 <= r < 2*jitter *)
Lemma latency_delay_range lat jit draws :
  ms_ok lat -> ms_ok jit ->
  exists d ds, latency_delay lat jit draws = (Some d, ds) /\
    (if 0 <? jit then (lat - jit) * 1000000 <= d < (lat + jit) * 1000000 else d = lat * 1000000).
Proof.
  unfold ms_ok. intros Hl Hj.
  unfold latency_delay, latency_jitter_guard, latency_rand_n, latency_delay_ns, latency_base_ns.
  rewrite maxint_half. replace (4611686018427387903 <? jit) with false by lia.
  destruct (0 <? jit) eqn:Hg; [|eexists _, _; split; [reflexivity|apply wrap64_id; lia]].
  rewrite (wrap64_id (jit * 2)) by lia. replace (jit * 2 <=? 0) with false by lia.
  (* whatever the draw, [r mod (2*jitter)] (or 0 when the oracle is exhausted) is in range *)
  assert (Hr : forall r, 0 <= r < jit * 2 ->
            (lat - jit) * 1000000 <= wrap64 (wrap64 (lat + wrap64 (r - jit)) * 1000000) < (lat + jit) * 1000000)
    by (intros r Hr; rewrite (wrap64_id (r - jit)), (wrap64_id (lat + _)), wrap64_id; lia).
  destruct draws as [|r0 ds]; eexists _, _; (split; [reflexivity|apply Hr]); [lia|apply Z.mod_pos_bound; lia].
Qed.

(** a chunk stamped [cts c] and picked up at [at_] is forwarded at max(at_, cts c + d): the
    deadline is counted from the arrival stamp, not from the pick-up, so a burst is delayed once *)
Lemma latency_one_eq lat jit ps draws at_ (c : chunk) fuel d ds :
  (1 < fuel)%nat ->
  latency_delay lat jit draws = (Some d, ds) ->
  stage_emit (TLatency lat jit) ps at_ fuel None
             (fst (on_input (TLatency lat jit) ps at_ draws (Some c) (Idle 0 None))) =
  ([(Z.max at_ (cts c + d), cdata c)], Idle 0 None, ps).
Proof.
  intros Hf Hd. cbn [on_input]. rewrite Hd.
  replace (cts c + d) with (at_ + (d - (at_ - cts c))) by lia.
  now erewrite stage_emit_wait_send by (exact Hf || reflexivity).
Qed.

(** the stamp a latency stage passes on: arrival stamp + sleep, which is the forwarding time only
    if the chunk was picked up the instant it was stamped (finding F6) *)
Lemma latency_restamp (c : chunk) sleep dl tx now :
  on_timer tx now (LatWait c sleep dl) = Send (mkChunk (cdata c) (cts c + sleep)) (KIdle 0).
Proof. reflexivity. Qed.

Definition data_only (arr : list (Z * option chunk)) : Prop :=
  Forall (fun a => snd a <> None) arr.

(** a timeout stage is always at rest: it takes what arrives and emits nothing *)
Lemma timeout_feed_one t fuel ps s at_ c :
  wf (TTimeout t) s ->
  feed_one (TTimeout t) fuel ps s at_ c = ([], fst (on_input (TTimeout t) ps at_ [] c s), ps) /\
  wf (TTimeout t) (fst (on_input (TTimeout t) ps at_ [] c s)).
Proof.
  intros Hwf. destruct s; try contradiction; try now split.
  split; [|now apply on_input_wf]. apply stage_emit_rest. now destruct c.
Qed.

(** data arriving at an idle timeout stage: the timer stays as it is unless traffic re-arms it *)
Lemma timeout_feed_data t fuel ps tmr arr :
  data_only arr -> (timeout_rearms = true -> forall now, timeout_arm t now = tmr) ->
  feed (TTimeout t) fuel ps (Idle 0 tmr) arr = ([], Idle 0 tmr, ps).
Proof.
  intros Hd Hre. induction Hd as [|[at_ [c|]] arr Hc _ IH]; [reflexivity| |now elim Hc].
  cbn [feed]. destruct (timeout_feed_one t fuel ps (Idle 0 tmr) at_ (Some c) ltac:(now destruct tmr)) as [-> _]. cbn [on_input fst].
  replace (if timeout_rearms then _ else tmr) with tmr by (destruct timeout_rearms; [symmetry; now apply Hre|reflexivity]).
  now rewrite IH.
Qed.

(** refutation for the re-arming variant (the pinned code, finding F2): T = 100 ms, a chunk every
    60 ms: after three chunks the deadline has moved from 100 ms to 280 ms *)
Theorem timeout_rearm_refuted :
  let arm now := Some (now + 100000000) in
  let step (tmr : option Z) (now : Z) := arm now in
  fold_left step [60000000; 120000000; 180000000] (arm 0) = Some 280000000.
Proof. reflexivity. Qed.

Lemma timer_not_early l i l' :
  stub_timer l i = Some l' ->
  exists s dl, nth_error (l_stubs l) i = Some s /\ stub_deadline s = Some dl /\ dl <= l_now l.
Proof.
  unfold stub_timer. destruct (nth_error (l_stubs l) i) as [s|]; [|discriminate].
  unfold stub_deadline. destruct (mode_of (s_st s)) as [inp intr [dl|]| | | | |] eqn:Hm; try discriminate. simpl.
  destruct (dl <=? l_now l) eqn:E; [|discriminate]. intros _. exists s, dl. split; [reflexivity|]. split; [now rewrite Hm|lia].
Qed.
