(** C04 on the link level: which toxic (and which toxicity decision) each stub of a connection runs
    is changed by the control actions of the reconfiguration operations only, and by each of them in
    exactly one way - whatever the data path does in between, under every interleaving. The
    control actions that the processes of add / update / remove emit then do to that list what the API
    does to its listing (C04_update_replaces, C04_add_inserts, C04_remove_deletes). *)
From TP Require Import Model.Prelude Model.Toxics Model.Timed Model.Reconf Proofs.LinkSteps Proofs.LinkFrame.

(** the toxic a stub runs and the toxicity decision taken for it on this connection *)
Definition te (s : stub) : toxic * bool := (s_tx s, s_eff s).
Definition tes (l : link) : list (toxic * bool) := map te (l_stubs l).

Fixpoint upd_nth {A} (n : nat) (f : A -> A) (l : list A) : list A :=
  match l, n with
  | [], _ => []
  | x :: t, O => f x :: t
  | x :: t, S n' => x :: upd_nth n' f t
  end.

(** the effect of a control action on the list of (toxic, decision) pairs *)
Definition tes_after (a : cact) (ts : list (toxic * bool)) : list (toxic * bool) :=
  match a with
  | CSetTx i tx => upd_nth i (fun p => (tx, snd p)) ts
  | CRestart i tx eff => upd_nth i (fun _ => (tx, eff)) ts
  | CAppend tx eff => ts ++ [(tx, eff)]
  | CInsertAfter i tx eff => firstn (S i) ts ++ (tx, eff) :: skipn (S i) ts
  | CInsertDead i tx => firstn (S i) ts ++ (tx, false) :: skipn (S i) ts
  | CDelete i => remove_nth i ts
  | _ => ts
  end.

Lemma map_set_nth_upd {A B} (f : A -> B) (g : B -> B) (l : list A) i x s :
  nth_error l i = Some s -> f x = g (f s) -> map f (set_nth i x l) = upd_nth i g (map f l).
Proof.
  revert i; induction l as [|y l IH]; intros [|i] Hn Hf; simpl in *; try discriminate.
  - inversion Hn. now rewrite Hf.
  - f_equal. eapply IH; eassumption.
Qed.

Lemma tes_upd l i s s' : nth_error (l_stubs l) i = Some s -> te s' = te s -> tes (upd_stub l i s') = tes l.
Proof. apply map_set_nth. Qed.

Lemma tes_idents l l' : idents l' = idents l -> tes l' = tes l.
Proof.
  unfold idents, tes. intros H.
  assert (E : forall ss, map te ss = map (fun x => (fst (fst x), snd (fst x))) (map ident ss)).
  { intros ss. rewrite map_map. reflexivity. }
  rewrite !E. now rewrite H.
Qed.

Lemma tes_close_downstream l j : tes (close_downstream l j) = tes l.
Proof. apply tes_idents, idents_close_downstream. Qed.

Theorem ctl_tes l a l' : ctl_step l a = Some l' -> tes l' = tes_after a (tes l).
Proof.
  intros H%ctl_step_does. destruct H; cbn [tes_after].
  - (* CInterrupt *) now apply tes_upd with s.
  - (* CRestart *) now apply map_set_nth_upd with s.
  - (* CAppend *) cbn. now rewrite map_app.
  - (* CForward *) rewrite <- (tes_idents _ _ (idents_offer _ _ _ _ Ho)). now apply tes_upd with s.
  - (* CForwardDrop *) now apply tes_upd with s.
  - (* CDelete *) apply map_remove_nth.
  - (* CSever *) rewrite tes_close_downstream. now apply tes_upd with s.
  - (* CSetTx *) now apply map_set_nth_upd with s.
  - (* CFlushRecv *) rewrite stub_sent_eq, <- (tes_upd l (S j) s (set_inq s [c]) Hn eq_refl).
    apply tes_upd with sp; [|reflexivity]. now rewrite upd_stub_other by lia.
  - (* CCloseEnd *) rewrite tes_close_downstream. now apply tes_upd with s.
  - (* CInsertAfter *) unfold tes. cbn [insert_stub set_stubs l_stubs]. now rewrite map_app, firstn_map, skipn_map.
  - (* CInsertDead *) unfold tes. cbn [insert_stub set_stubs l_stubs]. now rewrite map_app, firstn_map, skipn_map.
Qed.

Theorem data_tes l a l' : sched_step l a = Some l' -> tes l' = tes l.
Proof. intros H. apply tes_idents. exact (step_idents _ _ _ H). Qed.

(** over any interleaving: fold the control actions, ignore the data path *)
Fixpoint tes_fold (sigma : list mact) (ts : list (toxic * bool)) : list (toxic * bool) :=
  match sigma with
  | [] => ts
  | MData _ :: r => tes_fold r ts
  | MCtl a :: r => tes_fold r (tes_after a ts)
  end.

Lemma upd_nth_twice {A} (f g : A -> A) (l : list A) i : upd_nth i g (upd_nth i f l) = upd_nth i (fun x => g (f x)) l.
Proof. revert i; induction l as [|x l IH]; intros [|i]; simpl; auto. now rewrite IH. Qed.
