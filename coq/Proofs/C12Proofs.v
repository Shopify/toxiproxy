(** C12: one slicer stage run in isolation. From a state whose pending offsets are within a bound,
    every piece it emits is, and consecutive pieces are at least the delay apart. *)
From TP Require Import Model.Prelude Extracted Model.Toxics Proofs.SlicerProofs
     Proofs.StageContract Proofs.StageRun.

(** the piece being sent and the pieces still to be cut are non-empty and at most [b] long *)
Definition sized (b : Z) (s : lstate) : Prop :=
  match s with
  | Send c (KSlNext _ rest _ _) => 0 < zlen (cdata c) <= b /\ pieces_within b rest
  | Send _ KExit => False      (* the flush of an interrupted stage is not a cut piece *)
  | SlWait _ rest _ _ _ => pieces_within b rest
  | _ => True
  end.

Lemma slicer_next_sized b (c : chunk) rest o tot :
  slicer_cov c rest o tot -> pieces_within b rest -> sized b (slicer_next c rest o tot).
Proof.
  intros H Hp. apply slicer_next_cov in H. destruct rest as [|lo [|hi rest']]; [exact I|contradiction|].
  destruct H as (-> & _ & Hlen), Hp as [Hb Hp]. cbn [sized cdata]. split; [lia|exact Hp].
Qed.

Fixpoint gaps_ok (d : Z) (ts : list Z) : Prop :=
  match ts with
  | t1 :: r => match r with t2 :: _ => t1 + d <= t2 /\ gaps_ok d r | [] => True end
  | [] => True
  end.

Definition first_ge (t : Z) (es : list (Z * bytes)) : Prop :=
  match es with [] => True | (t0, _) :: _ => t <= t0 end.

Lemma slicer_emit_spec avg var delay b fuel : forall ps now s,
  let tx := TSlicer avg var delay in
  wf tx s -> sized b s ->
  let es := fst (fst (stage_emit tx ps now fuel None s)) in
  Forall (fun e => 0 < zlen (snd e) <= b) es /\
  gaps_ok (slicer_delay_ns delay) (map fst es) /\
  first_ge (match s with SlWait _ _ _ _ dl => Z.max now dl | _ => now end) es.
Proof.
  induction fuel as [|f IH]; intros ps now s tx Hwf Hsz; [cbn; auto|].
  destruct s; cbn in Hwf; try contradiction; try (rewrite stage_emit_rest by exact I; cbn; now auto).
  - (* a piece goes out; the wait that follows puts the next one at least the delay later *)
    destruct k; try contradiction. destruct Hsz as [Hb Hp].
    specialize (IH ps now (SlWait c0 rest o tot (now + slicer_delay_ns delay)) Hwf Hp).
    destruct (stage_emit _ _ _ f _ _) as [[es sf] psf] eqn:E.
    rewrite (stage_emit_sent tx ps now f None (Send c (KSlNext c0 rest o tot)) c _ _ _ eq_refl E).
    destruct IH as (IH1 & IH2 & IH3). cbn [fst snd map]. repeat split; [now constructor| |cbn; lia].
    destruct es as [|[t0 p0] es]; cbn in *; [exact I|split; [lia|exact IH2]].
  - (* the wait ends: the next piece, or back to idle *)
    rewrite (stage_emit_timer tx ps now f (SlWait c rest o tot dl) true dl eq_refl). unfold on_timer. cbn [on_timer_gen].
    apply (slicer_next_sized b c rest o tot Hwf) in Hsz. apply slicer_next_cov in Hwf.
    destruct rest as [|lo [|hi rest']]; [rewrite stage_emit_rest by exact I; cbn; now auto|contradiction|].
    destruct Hwf as (E & Hcov & _). rewrite E in *. now apply IH.
Qed.

Example c12_nonvacuous :
  let r := stage_emit (TSlicer 4 1 10) None 0 50 None
             (fst (on_input (TSlicer 4 1 10) None 0 [1;0;1;1;0] (Some (mkChunk [1;2;3;4;5;6;7;8;9;10;11;12;13] 0)) (Idle 0 None))) in
  emitted r = [1;2;3;4;5;6;7;8;9;10;11;12;13] /\ final_st r = Idle 0 None /\ (length (fst (fst r)) = 4)%nat.
Proof. vm_compute. auto. Qed.
