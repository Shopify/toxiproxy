(** Without reconfiguration no stage is ever in a flush-on-exit send, so the 5 s give-up of
    WriteOutput is never enabled: every schedule of a static link is free of ASendTimeout. *)
From TP Require Import Model.Prelude Model.Timed Proofs.StageContract Proofs.LinkSteps.

Definition static_stub (s : stub) : Prop := static_st (s_st s).
Definition static_link (l : link) : Prop := Forall static_stub (l_stubs l).

Lemma static_nth l i s : static_link l -> nth_error (l_stubs l) i = Some s -> static_stub s.
Proof. apply Forall_nth_error. Qed.

Lemma static_upd l i s : static_link l -> static_stub s -> static_link (upd_stub l i s).
Proof. apply Forall_set_nth. Qed.

Lemma static_stub_input l i s c q : static_link l -> static_stub s -> static_link (stub_input l i s c q).
Proof.
  intros Hl Hs. rewrite stub_input_eq. apply Forall_set_nth; [exact Hl|].
  apply static_on_input, Hs.
Qed.

Lemma static_offer l j c l1 : offer l j c = Some l1 -> static_link l -> static_link l1.
Proof.
  intros H%offer_offered Hl. destruct H.
  - unfold static_link. now rewrite deliver_sink_stubs.
  - apply static_upd; [exact Hl|exact (static_nth _ _ _ Hl Hn)].
  - apply static_stub_input; [exact Hl|exact (static_nth _ _ _ Hl Hn)].
Qed.

Lemma static_close_downstream l j : static_link l -> static_link (close_downstream l j).
Proof.
  intros Hl. unfold static_link. rewrite close_downstream_stubs.
  destruct (nth_error (l_stubs l) j) eqn:Hn; [|exact Hl]. apply Forall_set_nth; [exact Hl|]. exact (static_nth _ _ _ Hl Hn).
Qed.

Theorem static_step l a l' : sched_step l a = Some l' -> static_link l -> static_link l'.
Proof.
  intros H%sched_step_does Hl. destruct H; try exact Hl.
  - (* a stage takes from its input *) apply static_stub_input; [exact Hl|exact (static_nth _ _ _ Hl Hn)].
  - (* a send completes *) apply (static_offer _ _ _ _ Ho) in Hl. rewrite stub_sent_eq.
    apply static_upd; [exact Hl|]. apply static_on_sent, (static_nth _ _ _ Hl Hn1).
  - (* a stage closes its stub *) apply static_close_downstream, static_upd; [exact Hl|exact I].
  - (* a timer fires *) apply static_upd; [exact Hl|]. apply static_on_timer, (static_nth _ _ _ Hl Hn).
  - (* a hand-off is given up *) apply static_upd; [exact Hl|exact I].
  - (* the reader hands over *) exact (static_offer _ _ _ _ Ho Hl).
  - (* the reader sees the close *) apply static_close_downstream, Hl.
Qed.

Theorem static_no_send_timeout l i : static_link l -> stub_send_timeout l i = None.
Proof.
  intros Hl. unfold stub_send_timeout. destruct (nth_error (l_stubs l) i) as [s|] eqn:Hn; [|reflexivity].
  apply (static_nth _ _ _ Hl) in Hn. unfold static_stub in Hn. now destruct (s_st s).
Qed.
